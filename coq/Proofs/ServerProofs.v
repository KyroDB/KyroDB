(* Proofs about Model/Server.v (C10) that need no invariant: unauthenticated calls are refused, reserved keys
   are neither stored nor returned, Search containment.  Noninterference is in Proofs/ServerNI.v. *)
From Coq Require Import List NArith ZArith Bool String Ascii Lia.
From Kyro Require Import Model.Server Proofs.ListFacts.
Import ListNotations.
Open Scope N_scope.

Section GenericLists.
Lemma fold_left_map_ext : forall A B (f : A -> B -> A) (g : B -> B) l a,
  (forall a b, f a (g b) = f a b) -> fold_left f (map g l) a = fold_left f l a.
Proof. intros A B f g l. induction l as [|x l IH]; intros a H; cbn; [reflexivity|]. rewrite H. apply IH. exact H. Qed.
End GenericLists.

Lemma str_eqb_eq : forall a b, str_eqb a b = true <-> a = b.
Proof.
  induction a as [|x a IH]; intros [|y b]; cbn; split; intro H; try congruence; try discriminate.
  - apply andb_true_iff in H. destruct H as [H1 H2]. apply N.eqb_eq in H1. apply IH in H2. congruence.
  - inversion H; subst. rewrite N.eqb_refl. cbn. apply IH. reflexivity.
Qed.
Lemma str_eqb_refl : forall a, str_eqb a a = true.
Proof. intro a. apply str_eqb_eq. reflexivity. Qed.
Lemma str_eqb_neq : forall a b, str_eqb a b = false <-> a <> b.
Proof.
  intros a b. split; intro H.
  - intro E. apply str_eqb_eq in E. congruence.
  - destruct (str_eqb a b) eqn:E; [apply str_eqb_eq in E; contradiction|reflexivity].
Qed.
Lemma str_eqb_sym : forall a b, str_eqb a b = str_eqb b a.
Proof.
  intros a b. destruct (str_eqb a b) eqn:E.
  - apply str_eqb_eq in E. subst. symmetry. apply str_eqb_refl.
  - symmetry. apply str_eqb_neq. apply str_eqb_neq in E. congruence.
Qed.

Lemma mget_mset_same : forall m k v, mget (mset m k v) k = Some v.
Proof.
  induction m as [|[k' v'] r IH]; intros k v; cbn.
  - rewrite str_eqb_refl. reflexivity.
  - destruct (str_eqb k k') eqn:E; cbn.
    + rewrite str_eqb_refl. reflexivity.
    + destruct (str_ltb k k'); cbn.
      * rewrite str_eqb_refl. reflexivity.
      * rewrite E. apply IH.
Qed.
Lemma mget_mset_other : forall m k v k', k' <> k -> mget (mset m k v) k' = mget m k'.
Proof.
  induction m as [|[k0 v0] r IH]; intros k v k' Hne; cbn.
  - apply str_eqb_neq in Hne. rewrite Hne. reflexivity.
  - destruct (str_eqb k k0) eqn:E; cbn.
    + apply str_eqb_eq in E. subst k0.
      assert (str_eqb k' k = false) as -> by (apply str_eqb_neq; exact Hne). reflexivity.
    + destruct (str_ltb k k0); cbn.
      * assert (str_eqb k' k = false) as -> by (apply str_eqb_neq; exact Hne). reflexivity.
      * destruct (str_eqb k' k0); [reflexivity|]. apply IH. exact Hne.
Qed.
Lemma mget_mremove_same : forall m k, mget (mremove m k) k = None.
Proof.
  induction m as [|[k0 v0] r IH]; intro k; cbn; [reflexivity|].
  destruct (str_eqb k k0) eqn:E; cbn; [apply IH|]. rewrite E. apply IH.
Qed.
Lemma mget_mremove_other : forall m k k', k' <> k -> mget (mremove m k) k' = mget m k'.
Proof.
  induction m as [|[k0 v0] r IH]; intros k k' Hne; cbn; [reflexivity|].
  destruct (str_eqb k k0) eqn:E; cbn.
  - apply str_eqb_eq in E. subst k0.
    assert (str_eqb k' k = false) as -> by (apply str_eqb_neq; exact Hne). apply IH. exact Hne.
  - destruct (str_eqb k' k0); [reflexivity|]. apply IH. exact Hne.
Qed.
Lemma in_mremove : forall m k a b, In (a, b) (mremove m k) -> a <> k /\ In (a, b) m.
Proof.
  intros m k a b H. unfold mremove in H. apply filter_In in H. destruct H as [H1 H2]. cbn in H2.
  split; [|exact H1]. intro E. subst a. rewrite str_eqb_refl in H2. discriminate.
Qed.
Lemma in_mset : forall m k v a b, In (a, b) (mset m k v) -> (a = k /\ b = v) \/ In (a, b) m.
Proof.
  induction m as [|[k0 v0] r IH]; intros k v a b H; cbn in H.
  - destruct H as [H|[]]. inversion H. left. split; reflexivity.
  - destruct (str_eqb k k0) eqn:E.
    + destruct H as [H|H]; [inversion H; left; split; reflexivity | right; right; exact H].
    + destruct (str_ltb k k0).
      * destruct H as [H|H]; [inversion H; left; split; reflexivity | right; exact H].
      * destruct H as [H|H]; [right; left; exact H|]. apply IH in H. destruct H as [H|H]; [left; exact H | right; right; exact H].
Qed.

Lemma K_distinct : K_TID <> K_TIDX /\ K_TID <> K_NS /\ K_TIDX <> K_NS.
Proof. repeat split; intro H; vm_compute in H; discriminate. Qed.
#[global] Opaque K_TID K_TIDX K_NS.

Definition is_reserved (k : str) : Prop := k = K_TID \/ k = K_TIDX \/ k = K_NS.

Lemma mget_strip_reserved : forall m k, is_reserved k -> mget (strip_reserved m) k = None.
Proof.
  intros m k [H|[H|H]]; subst k; unfold strip_reserved; destruct K_distinct as [D1 [D2 D3]];
    rewrite ?mget_mremove_other by congruence; apply mget_mremove_same.
Qed.
Lemma in_strip_reserved : forall m a b, In (a, b) (strip_reserved m) -> ~ is_reserved a /\ In (a, b) m.
Proof.
  intros m a b H. unfold strip_reserved in H.
  apply in_mremove in H. destruct H as [N1 H]. apply in_mremove in H. destruct H as [N2 H].
  apply in_mremove in H. destruct H as [N3 H]. split; [|exact H].
  intros [E|[E|E]]; congruence.
Qed.
Lemma mremove_comm : forall m a b, mremove (mremove m a) b = mremove (mremove m b) a.
Proof. intros. apply filter_comm. Qed.
Lemma mremove_idem : forall m a, mremove (mremove m a) a = mremove m a.
Proof. intros. apply filter_absorb. auto. Qed.
Lemma mremove_filter : forall m a, mremove m a = List.filter (fun kv => negb (str_eqb a (fst kv))) m.
Proof. reflexivity. Qed.
Definition not_reserved (kv : str * str) : bool :=
  negb (str_eqb K_TID (fst kv)) && negb (str_eqb K_TIDX (fst kv)) && negb (str_eqb K_NS (fst kv)).
Lemma strip_reserved_filter : forall m, strip_reserved m = List.filter not_reserved m.
Proof.
  intro m. unfold strip_reserved, mremove, not_reserved. induction m as [|kv r IH]; cbn; [reflexivity|].
  destruct (str_eqb K_TID (fst kv)) eqn:E1; cbn; [exact IH|].
  destruct (str_eqb K_TIDX (fst kv)) eqn:E2; cbn; [exact IH|].
  destruct (str_eqb K_NS (fst kv)) eqn:E3; cbn; [exact IH|]. rewrite IH. reflexivity.
Qed.
Lemma strip_reserved_idem : forall m, strip_reserved (strip_reserved m) = strip_reserved m.
Proof. intro m. rewrite !strip_reserved_filter. apply filter_absorb. auto. Qed.

Lemma tenant_of_to_global : forall t l g, to_global_doc_id t l = Some g -> tenant_of g = t.
Proof.
  intros t l g H. unfold to_global_doc_id in H. destruct (U32_MAX <? l) eqn:E; [discriminate|].
  inversion H; subst g; clear H. apply N.ltb_ge in E. unfold tenant_of.
  rewrite N.shiftr_lor. rewrite N.shiftr_shiftl_l by lia. replace (32 - 32) with 0 by lia.
  rewrite N.shiftl_0_r.
  assert (N.shiftr l 32 = 0) as ->.
  { destruct (N.eq_dec l 0) as [->|Hl]; [reflexivity|].
    apply N.shiftr_eq_0. apply N.log2_lt_pow2; [lia|]. unfold U32_MAX in E. change (2 ^ 32) with 4294967296. lia. }
  apply N.lor_0_r.
Qed.

Lemma nget_nset_same : forall A (m : nmap A) k v, nget (nset m k v) k = Some v.
Proof.
  induction m as [|[k' v'] r IH]; intros k v; cbn; [rewrite N.eqb_refl; reflexivity|].
  destruct (k =? k') eqn:E; cbn; [rewrite N.eqb_refl; reflexivity|]. rewrite E. apply IH.
Qed.
Lemma nget_nset_other : forall A (m : nmap A) k v k', k' <> k -> nget (nset m k v) k' = nget m k'.
Proof.
  induction m as [|[k0 v0] r IH]; intros k v k' Hne; cbn.
  - apply N.eqb_neq in Hne. rewrite Hne. reflexivity.
  - destruct (k =? k0) eqn:E; cbn.
    + apply N.eqb_eq in E. subst k0. apply N.eqb_neq in Hne. rewrite Hne. reflexivity.
    + destruct (k' =? k0); [reflexivity|]. apply IH. exact Hne.
Qed.
Lemma nget_nset : forall A (m : nmap A) k v k', nget (nset m k v) k' = if k' =? k then Some v else nget m k'.
Proof.
  intros A m k v k'. destruct (N.eqb_spec k' k) as [->|Hne]; [apply nget_nset_same | apply nget_nset_other; exact Hne].
Qed.

Lemma in_cinsert : forall c l x, In x (cinsert c l) -> x = c \/ In x l.
Proof.
  induction l as [|y l IH]; intros x H; cbn in H.
  - destruct H as [H|[]]. left. congruence.
  - destruct (cand_le c y).
    + destruct H as [H|H]; [left; congruence | right; exact H].
    + destruct H as [H|H]; [right; left; exact H|]. apply IH in H. destruct H as [H|H]; [left; exact H | right; right; exact H].
Qed.
Lemma in_csort : forall l x, In x (csort l) -> In x l.
Proof.
  induction l as [|y l IH]; intros x H; cbn in H; [contradiction|].
  apply in_cinsert in H. destruct H as [H|H]; [left; congruence | right; apply IH; exact H].
Qed.

Section Basic.
Variable idx_str : N -> str.
Variable score : Z -> Z.
Notation step := (step idx_str score).
Notation handle := (handle idx_str score).

Lemma auth_some : forall cfg key ki, auth cfg key = Some ki ->
  exists k, key = Some k /\ nget (c_keys cfg) k = Some ki /\ k_enabled ki = true.
Proof.
  intros cfg [k|] ki H; cbn in H; [|discriminate].
  destruct (nget (c_keys cfg) k) as [ki'|] eqn:E; [|discriminate].
  destruct (k_enabled ki') eqn:En; [|discriminate]. inversion H; subst. exists k. auto.
Qed.
Lemma unauthenticated_refused : forall cfg s c,
  auth cfg (c_key c) = None ->
  step cfg s c = (s, Err (if is_http (c_req c) then Http401 else Unauthenticated)).
Proof. intros cfg s c H. unfold Server.step. rewrite H. reflexivity. Qed.
Lemma auth_none_cases : forall cfg key,
  (key = None \/ (exists k, key = Some k /\ nget (c_keys cfg) k = None)
   \/ (exists k ki, key = Some k /\ nget (c_keys cfg) k = Some ki /\ k_enabled ki = false)) ->
  auth cfg key = None.
Proof.
  intros cfg key [H|[[k [H1 H2]]|[k [ki [H1 [H2 H3]]]]]]; subst; cbn; [reflexivity| |]; rewrite H2; [reflexivity|].
  rewrite H3. reflexivity.
Qed.

(* reserved keys: what is stored does not depend on client-supplied reserved keys *)
Lemma stored_meta_reserved : forall ki m ns,
  mget (stored_meta idx_str ki m ns) K_TIDX = Some (idx_str (k_tenant ki)) /\
  mget (stored_meta idx_str ki m ns) K_TID = Some (k_tid ki) /\
  mget (stored_meta idx_str ki m ns) K_NS = match ns with [] => None | _ => Some ns end.
Proof.
  intros ki m ns. destruct K_distinct as [D1 [D2 D3]]. unfold stored_meta.
  destruct ns as [|c ns']; repeat split; rewrite ?mget_mset_other by congruence; try apply mget_mset_same.
  apply mget_strip_reserved. right. right. reflexivity.
Qed.
Lemma stored_meta_strip : forall ki m ns, stored_meta idx_str ki (strip_reserved m) ns = stored_meta idx_str ki m ns.
Proof. intros. unfold stored_meta. rewrite strip_reserved_idem. reflexivity. Qed.
Lemma keep_reserved_strip : forall e m, keep_reserved e (strip_reserved m) = keep_reserved e m.
Proof. intros. unfold keep_reserved. rewrite strip_reserved_idem. reflexivity. Qed.

Definition strip_item (it : item) : item := mkItem (i_id it) (i_vec it) (strip_reserved (i_meta it)) (i_ns it).
Definition strip_req (r : req) : req :=
  match r with
  | RInsert it => RInsert (strip_item it)
  | RBulkInsert its => RBulkInsert (map strip_item its)
  | RBulkLoad its => RBulkLoad (map strip_item its)
  | RUpdateMeta id m merge ns => RUpdateMeta id (strip_reserved m) merge ns
  | r => r
  end.
Lemma handle_strip : forall cfg ki s r, handle cfg ki s (strip_req r) = handle cfg ki s r.
Proof.
  intros cfg ki s r. destruct r; cbn [strip_req Server.handle]; try reflexivity.
  - unfold h_insert, strip_item; cbn [i_id i_vec i_meta i_ns]. rewrite stored_meta_strip. reflexivity.
  - unfold h_bulk_insert. rewrite fold_left_map_ext; [reflexivity|].
    intros [s0 [a b]] it. unfold bulk_insert_item, strip_item; cbn [i_id i_vec i_meta i_ns]. rewrite stored_meta_strip. reflexivity.
  - unfold h_bulk_load. rewrite fold_left_map_ext; [reflexivity|].
    intros [ds bad] it. unfold bl_validate, strip_item; cbn [i_id i_vec i_meta i_ns]. rewrite stored_meta_strip. reflexivity.
  - unfold h_update. destruct (id =? 0); [reflexivity|]. destruct (to_global_doc_id (k_tenant ki) id); [|reflexivity].
    destruct (dget (st_docs s) n); [|reflexivity]. rewrite keep_reserved_strip. reflexivity.
Qed.
Lemma step_strip : forall cfg s c, step cfg s (mkCall (c_key c) (strip_req (c_req c))) = step cfg s c.
Proof.
  intros cfg s c. unfold Server.step. cbn [c_key c_req].
  destruct (auth cfg (c_key c)); [apply handle_strip|]. destruct (c_req c); reflexivity.
Qed.

(* reserved keys never appear in a response *)
Definition sres_metas (x : sres) : list meta := match x with SOk hits _ => map h_meta hits | SErr _ => [] end.
Definition resp_metas (r : resp) : list meta :=
  match r with
  | OkQuery q => [q_meta q]
  | OkBulkQuery rs _ _ => map q_meta rs
  | OkSearch hits _ => map h_meta hits
  | OkBulkSearch rs => flat_map sres_metas rs
  | _ => []
  end.
Definition public (m : meta) : Prop := forall k, is_reserved k -> mget m k = None.
Lemma public_sanitize : forall m, public (sanitize m).
Proof. intros m k H. apply mget_strip_reserved. exact H. Qed.
Lemma public_nil : public [].
Proof. intros k _. reflexivity. Qed.

Lemma search_core_ok : forall cfg ki ds r hits tf,
  search_core idx_str score cfg ki ds r = SOk hits tf ->
  exists sk, search_plan r = Some sk /\
    hits = map (mk_hit score r) (take (s_k r) (List.filter (served idx_str score ki r) (knn ds (s_q r) sk))) /\
    tf = len (List.filter (served idx_str score ki r) (knn ds (s_q r) sk)).
Proof.
  intros cfg ki ds r hits tf H. unfold search_core in H.
  destruct (search_plan r) as [sk|]; [|discriminate].
  destruct (negb (len (s_q r) =? c_dim cfg)); [discriminate|]. inversion H. exists sk. auto.
Qed.
Lemma search_core_public : forall cfg ki ds r m, In m (sres_metas (search_core idx_str score cfg ki ds r)) -> public m.
Proof.
  intros cfg ki ds r m H. destruct (search_core idx_str score cfg ki ds r) as [|hits tf] eqn:E; [contradiction|].
  apply search_core_ok in E. destruct E as (sk & _ & -> & _). cbn [sres_metas] in H.
  rewrite map_map in H. apply in_map_iff in H. destruct H as [[[d g] dc] [H _]]. subst m. apply public_sanitize.
Qed.
Lemma bq_one_public : forall ki ds incl ns id g, public (q_meta (bq_one idx_str ki ds incl ns id g)).
Proof.
  intros. unfold bq_one. destruct (dget ds g); [|apply public_nil].
  destruct (negb (ns_ok ns (d_meta d))); [apply public_nil|].
  destruct (negb (tenant_ok idx_str ki (d_meta d))); [apply public_nil|]. apply public_sanitize.
Qed.
(* Query answers as BulkQuery does for one id *)
Lemma h_query_eq : forall ki s id incl ns, h_query idx_str ki s id incl ns =
  if id =? 0 then (s, Err InvalidArgument)
  else match to_global_doc_id (k_tenant ki) id with
       | None => (s, Err InvalidArgument)
       | Some g => (rec_query s (k_tenant ki) 1, OkQuery (bq_one idx_str ki (st_docs s) incl ns id g))
       end.
Proof.
  intros. unfold h_query, bq_one. destruct (id =? 0); [reflexivity|]. destruct (to_global_doc_id _ _) as [g|]; [|reflexivity].
  destruct (dget (st_docs s) g) as [d|]; [|reflexivity]. destruct (tenant_ok _ _ _), (ns_ok _ _); reflexivity.
Qed.
Lemma zipwith_in : forall A B C (f : A -> B -> C) a b x, In x (zipwith f a b) -> exists p q, x = f p q.
Proof.
  induction a as [|p a IH]; intros [|q b] x H; cbn in H; try contradiction.
  destruct H as [H|H]; [exists p, q; congruence | apply IH in H; exact H].
Qed.
Lemma responses_public : forall cfg s c m, In m (resp_metas (snd (step cfg s c))) -> public m.
Proof.
  intros cfg s c m H. unfold Server.step in H. destruct (auth cfg (c_key c)) as [ki|]; [|contradiction].
  destruct (c_req c); cbn [Server.handle] in H.
  - unfold h_insert in H. destruct (i_id it <? 1); [contradiction|]. destruct (i_vec it); [contradiction|].
    destruct (to_global_doc_id _ _); [|contradiction]. destruct (enforce_quota _ _ _) as [[already s1]|]; [|contradiction].
    destruct (engine_insert_ok _ _); contradiction.
  - unfold h_bulk_insert in H. destruct (fold_left _ _ _) as [s' [a b]]. contradiction.
  - unfold h_bulk_load in H. destruct (fold_left _ _ _) as [batch bad]. destruct batch; [contradiction|].
    destruct (negb _ && _); [contradiction|].
    destruct (fold_left _ _ _) as [ds [a b]]. contradiction.
  - rewrite h_query_eq in H. destruct (id =? 0); [contradiction|]. destruct (to_global_doc_id _ _); [|contradiction].
    destruct H as [<-|[]]. apply bq_one_public.
  - unfold h_bulk_query in H. destruct (map_ids (k_tenant ki) ids); [|contradiction]. cbn [snd resp_metas] in H.
    apply in_map_iff in H. destruct H as [q [H1 H2]]. apply zipwith_in in H2. destruct H2 as [p [g H2]]. subst. apply bq_one_public.
  - unfold h_search in H. destruct (search_core idx_str score cfg ki (st_docs s) s0) eqn:E; [contradiction|].
    cbn [snd resp_metas] in H. apply (search_core_public cfg ki (st_docs s) s0). rewrite E. exact H.
  - unfold h_bulk_search in H. cbn [snd resp_metas] in H. apply in_flat_map in H. destruct H as [x [H1 H2]].
    apply in_map_iff in H1. destruct H1 as [r [H1 _]]. subst x. apply (search_core_public cfg ki (st_docs s) r). exact H2.
  - unfold h_update in H. destruct (id =? 0); [contradiction|]. destruct (to_global_doc_id _ _); [|contradiction].
    destruct (dget _ _); [|contradiction]. destruct (negb _); [contradiction|]. destruct (negb _); contradiction.
  - unfold h_delete in H. destruct (id <? 1); [contradiction|]. destruct (to_global_doc_id _ _); [|contradiction].
    destruct (dget _ _); [|contradiction]. destruct (negb _); [contradiction|]. destruct (negb _); contradiction.
  - unfold h_batch_delete_ids in H. destruct (map_ids _ _); [|contradiction]. unfold finish_batch_delete in H. destruct (engine_batch_delete _ _). contradiction.
  - unfold h_batch_delete_filter, finish_batch_delete in H. destruct (engine_batch_delete _ _). contradiction.
  - contradiction.
  - destruct force; contradiction.
  - unfold h_usage in H. destruct scope as [sc|]; [|contradiction]. destruct (str_eq_nocase sc _); [contradiction|].
    destruct (str_eq_nocase sc _); [|contradiction]. destruct (k_admin ki); contradiction.
Qed.

Definition hit_of (ki : keyinfo) (r : sreq) (ds : docs) (h : hit) : Prop :=
  exists g d, In (g, d) ds /\ tenant_of g = k_tenant ki
    /\ tenant_ok idx_str ki (d_meta d) = true
    /\ ns_ok (s_ns r) (d_meta d) = true
    /\ match norm_filter r with Some f => fmatches f (d_meta d) = true | None => True end
    /\ h = mkHit (to_local_doc_id g) (score (dist2 (s_q r) (d_vec d))) (if s_incl r then d_vec d else []) (sanitize (d_meta d)).
Lemma search_core_contained : forall cfg ki ds r hits tf,
  search_core idx_str score cfg ki ds r = SOk hits tf ->
  (forall h, In h hits -> hit_of ki r ds h /\ public (h_meta h)) /\ (len hits <= s_k r) /\ (len hits <= tf).
Proof.
  intros cfg ki ds r hits tf H. apply search_core_ok in H. destruct H as (sk & _ & -> & ->).
  split; [|unfold len, take; rewrite map_length, firstn_length; lia].
  intros h Hh. apply in_map_iff in Hh. destruct Hh as [[[dd g] d] [<- Hc]]. split; [|apply public_sanitize].
  apply in_firstn, filter_In in Hc. destruct Hc as [Hin Hs].
  apply in_firstn, in_csort, in_map_iff in Hin. destruct Hin as [[g' d'] [E Hd]]. inversion E; subst dd g' d'.
  unfold served in Hs. repeat (apply andb_true_iff in Hs; destruct Hs as [Hs ?]).
  exists g, d. repeat split; try assumption.
  - apply N.eqb_eq. exact Hs.
  - destruct (norm_filter r); [assumption|exact I].
Qed.
End Basic.
