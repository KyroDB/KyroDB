(* The persistence invariant `Inv` of Model/Backend.v (DESIGN.md §3.2): established by `init`, kept by every
   `step`; strict recovery of an invariant state returns exactly the live store (C02). *)
From Coq Require Import List NArith ZArith Bool Lia.
From Kyro Require Import Model.Amap Model.Backend Proofs.ListFacts Proofs.AmapProofs.
Import ListNotations.
Open Scope N_scope.
Arguments N.add : simpl never.
Arguments N.mul : simpl never.
Arguments N.max : simpl never.
Arguments N.pred : simpl never.
Arguments N.ltb : simpl never.
Arguments N.leb : simpl never.
Arguments N.eqb : simpl never.
Arguments N.of_nat : simpl never.

Lemma name_eqb_spec : forall a b, reflect (a = b) (name_eqb a b).
Proof.
  intros a b. destruct a, b; cbn; try (constructor; congruence);
    destruct (N.eqb_spec n n0); constructor; congruence.
Qed.

Lemma name_eqb_refl : forall a, name_eqb a a = true.
Proof. intros a. destruct (name_eqb_spec a a); congruence. Qed.

Lemma name_eqb_neq : forall a b, a <> b -> name_eqb a b = false.
Proof. intros a b H. destruct (name_eqb_spec a b); congruence. Qed.

Lemma dget_dset_same : forall d k f, dget (dset d k f) k = Some f.
Proof.
  induction d as [|[k0 f0] r IH]; intros k f; cbn.
  - rewrite name_eqb_refl. reflexivity.
  - destruct (name_eqb_spec k0 k); cbn.
    + rewrite name_eqb_refl. reflexivity.
    + rewrite name_eqb_neq by assumption. apply IH.
Qed.

Lemma dget_dset_other : forall d k f x, x <> k -> dget (dset d k f) x = dget d x.
Proof.
  induction d as [|[k0 f0] r IH]; intros k f x H; cbn.
  - rewrite name_eqb_neq by congruence. reflexivity.
  - destruct (name_eqb_spec k0 k); cbn.
    + subst k0. rewrite !name_eqb_neq by congruence. reflexivity.
    + destruct (name_eqb_spec k0 x); [reflexivity|]. apply IH; assumption.
Qed.

Lemma dget_dremove_same : forall d k, dget (dremove d k) k = None.
Proof.
  induction d as [|[k0 f0] r IH]; intros k; cbn; [reflexivity|].
  destruct (name_eqb_spec k0 k); [apply IH|]. cbn. rewrite name_eqb_neq by assumption. apply IH.
Qed.

Lemma dget_dremove_other : forall d k x, x <> k -> dget (dremove d k) x = dget d x.
Proof.
  induction d as [|[k0 f0] r IH]; intros k x H; cbn; [reflexivity|].
  destruct (name_eqb_spec k0 k); cbn.
  - subst k0. rewrite name_eqb_neq by congruence. apply IH; assumption.
  - destruct (name_eqb_spec k0 x); [reflexivity|]. apply IH; assumption.
Qed.

Lemma dget_max_id : forall d k f, dget d k = Some f -> name_id k <= max_id d.
Proof.
  induction d as [|[k0 f0] r IH]; intros k f H; [discriminate|].
  unfold max_id. cbn [fold_right fst]. fold (max_id r). cbn [dget] in H.
  destruct (name_eqb_spec k0 k).
  - subst. lia.
  - specialize (IH _ _ H). lia.
Qed.

Lemma fresh_none : forall d k, name_id k = fresh_id d -> dget d k = None.
Proof.
  intros d k H. destruct (dget d k) eqn:E; [|reflexivity].
  apply dget_max_id in E. unfold fresh_id in H. lia.
Qed.

Lemma apply_effs_app : forall d a b, apply_effs d (a ++ b) = apply_effs (apply_effs d a) b.
Proof. intros. unfold apply_effs. apply fold_left_app. Qed.

Ltac dsimp :=
  repeat first
    [ rewrite dget_dset_same
    | rewrite dget_dremove_same
    | rewrite dget_dset_other by congruence
    | rewrite dget_dremove_other by congruence ].

(* Manifest::save and Snapshot::save are the same five effects: write a temp file, fsync it, rename it
   over the destination, fsync the directory *)
Definition atomic_write (tmp dst : name) (c : file) : list eff :=
  [ECreate tmp true; EWriteFile tmp c; EFsync tmp; ERename tmp dst; EFsyncDir].

Lemma atomic_write_get : forall d tmp dst c, dget (apply_effs d (atomic_write tmp dst c)) dst = Some c.
Proof.
  intros d tmp dst c. unfold atomic_write, apply_effs. cbn [fold_left apply_eff].
  destruct (dget d tmp); dsimp; cbn; dsimp; reflexivity.
Qed.

Lemma atomic_write_other : forall d tmp dst c x, x <> dst -> x <> tmp ->
  dget (apply_effs d (atomic_write tmp dst c)) x = dget d x.
Proof.
  intros d tmp dst c x H1 H2. unfold atomic_write, apply_effs. cbn [fold_left apply_eff].
  destruct (dget d tmp); dsimp; cbn; dsimp; reflexivity.
Qed.

Lemma save_manifest_get : forall d m,
  dget (apply_effs d (save_manifest_effs m)) NManifest = Some (FManifest m).
Proof. intros d m. exact (atomic_write_get d NManifestTmp NManifest (FManifest m)). Qed.

Lemma save_manifest_other : forall d m x, x <> NManifest -> x <> NManifestTmp ->
  dget (apply_effs d (save_manifest_effs m)) x = dget d x.
Proof. intros d m x. exact (atomic_write_other d NManifestTmp NManifest (FManifest m) x). Qed.

Lemma save_snapshot_get : forall d k sn,
  dget (apply_effs d (save_snapshot_effs k sn)) (NSnap k) = Some (FSnap sn).
Proof. intros d k sn. exact (atomic_write_get d (NSnapTmp k) (NSnap k) (FSnap sn)). Qed.

Lemma save_snapshot_other : forall d k sn x, x <> NSnap k -> x <> NSnapTmp k ->
  dget (apply_effs d (save_snapshot_effs k sn)) x = dget d x.
Proof. intros d k sn x. exact (atomic_write_other d (NSnapTmp k) (NSnap k) (FSnap sn) x). Qed.

Lemma new_wal_get : forall d f, dget d f = None ->
  dget (apply_effs d (new_wal_effs f)) f = Some (FWal [] Clean).
Proof.
  intros d f H. unfold new_wal_effs, apply_effs. cbn [fold_left apply_eff].
  rewrite H. dsimp. cbn. dsimp. reflexivity.
Qed.

Lemma new_wal_other : forall d f x, dget d f = None -> x <> f ->
  dget (apply_effs d (new_wal_effs f)) x = dget d x.
Proof.
  intros d f x H Hx. unfold new_wal_effs, apply_effs. cbn [fold_left apply_eff].
  rewrite H. dsimp. cbn. dsimp. reflexivity.
Qed.

Lemma fsync_effs_nop : forall c f d, apply_effs d (fsync_effs c f) = d.
Proof. intros c f d. unfold fsync_effs. destruct (c_fsync c); reflexivity. Qed.

Definition append_effs (a : name) (es : list entry) : list eff :=
  map (fun e => EAppend a (BFrame (Good e))) es.

Lemma append_effs_cons : forall d a e r,
  apply_effs d (append_effs a (e :: r)) =
  apply_effs (apply_eff d (EAppend a (BFrame (Good e)))) (append_effs a r).
Proof. reflexivity. Qed.

Lemma append_get : forall es d a es0,
  dget d a = Some (FWal (map Good es0) Clean) ->
  dget (apply_effs d (append_effs a es)) a = Some (FWal (map Good (es0 ++ es)) Clean).
Proof.
  induction es as [|e r IH]; intros d a es0 H.
  - rewrite app_nil_r. exact H.
  - rewrite append_effs_cons.
    replace (es0 ++ e :: r) with ((es0 ++ [e]) ++ r) by (rewrite <- app_assoc; reflexivity).
    apply IH. cbn [apply_eff]. rewrite H. dsimp. rewrite map_app. reflexivity.
Qed.

Lemma append_other : forall es d a x, x <> a ->
  dget (apply_effs d (append_effs a es)) x = dget d x.
Proof.
  induction es as [|e r IH]; intros d a x H; [reflexivity|].
  rewrite append_effs_cons. rewrite IH by assumption.
  cbn [apply_eff]. destruct (dget d a) as [[| frs [| |] | | |]|]; dsimp; reflexivity.
Qed.

Lemma unlinks_other : forall del d x, ~ In x del ->
  dget (apply_effs d (map EUnlink del)) x = dget d x.
Proof.
  induction del as [|n r IH]; intros d x H; [reflexivity|].
  change (apply_effs d (map EUnlink (n :: r))) with (apply_effs (dremove d n) (map EUnlink r)).
  rewrite IH by (intro; apply H; right; assumption).
  apply dget_dremove_other. intro; apply H; left; congruence.
Qed.

Definition wal_good (d : dir) (nm : name) : Prop :=
  exists es, dget d nm = Some (FWal (map Good es) Clean).

(* what the reader tolerates: a clean end of file or a torn tail (C01 crash states) *)
Definition wal_readable (d : dir) (nm : name) : Prop :=
  exists es t, dget d nm = Some (FWal (map Good es) t) /\ t <> BadLen.

Lemma wal_good_readable : forall d nm, wal_good d nm -> wal_readable d nm.
Proof. intros d nm [es H]. exists es, Clean. split; [exact H|discriminate]. Qed.

Definition entries_of (d : dir) (nm : name) : list entry :=
  match dget d nm with Some (FWal frs _) => fst (read_frames frs) | _ => [] end.

Definition all_entries (d : dir) (segs : list name) : list entry := flat_map (entries_of d) segs.

Definition keep_e (sseq : N) (e : entry) : bool := negb (covered sseq e).

(* the collection defined by a snapshot and the entries that follow it *)
Definition replay_pure (sseq : N) (st : store) (es : list entry) : store :=
  fold_left apply_entry (filter (keep_e sseq) es) st.

Definition maxseq (mx : N) (es : list entry) : N := fold_left (fun a e => N.max a (e_seq e)) es mx.

Definition entry_ok (c : cfg) (nx : N) (e : entry) : Prop :=
  1 <= e_seq e /\ e_seq e < nx /\ (e_op e = Ins -> len (e_vec e) = c_dim c).

Lemma read_frames_good : forall es, read_frames (map Good es) = (es, 0).
Proof. induction es as [|e r IH]; cbn; [reflexivity|]. rewrite IH. reflexivity. Qed.

Lemma entries_of_good : forall d nm es t, dget d nm = Some (FWal (map Good es) t) -> entries_of d nm = es.
Proof. intros d nm es t H. unfold entries_of. rewrite H, read_frames_good. reflexivity. Qed.

Lemma replay_entries_ok : forall c sseq nx es, Forall (entry_ok c nx) es -> forall st mx gap,
  replay_entries c sseq sseq (st, mx, gap) es = Ok (replay_pure sseq st es, maxseq mx es, gap).
Proof.
  intros c sseq nx es H. induction H as [|e r He Hr IH]; intros st mx gap; [reflexivity|].
  cbn [replay_entries]. unfold replay_entry.
  destruct He as (H1 & H2 & H3).
  destruct (N.eqb_spec (e_seq e) 0) as [E|E]; [lia|].
  assert (Hgap : (sseq <? e_seq e) && (e_seq e <=? sseq) = false).
  { destruct (N.ltb_spec sseq (e_seq e)); [|reflexivity].
    destruct (N.leb_spec (e_seq e) sseq); [lia|reflexivity]. }
  rewrite Hgap.
  (* the reader skips exactly the entries that compaction counts as covered *)
  replace ((0 <? sseq) && (0 <? e_seq e) && (e_seq e <=? sseq)) with (covered sseq e)
    by (unfold covered; rewrite (andb_comm (0 <? sseq)); reflexivity).
  unfold replay_pure, maxseq. cbn [filter fold_left]. unfold keep_e at 1.
  destruct (covered sseq e); cbn [negb]; [apply IH|].
  destruct (e_op e) eqn:O; [rewrite (H3 eq_refl), N.eqb_refl| |]; cbn [fold_left]; apply IH.
Qed.

Lemma replay_segments_ok : forall c d sseq nx segs st mx gap,
  (forall nm, In nm segs -> wal_readable d nm) ->
  Forall (entry_ok c nx) (all_entries d segs) ->
  replay_segments c Strict d sseq sseq (st, mx, gap) segs
  = Ok (replay_pure sseq st (all_entries d segs), maxseq mx (all_entries d segs), gap).
Proof.
  intros c d sseq nx. induction segs as [|nm rest IH]; intros st mx gap Hg Hok; [reflexivity|].
  destruct (Hg nm (or_introl eq_refl)) as (es & t & Hes & Ht).
  cbn [replay_segments]. rewrite Hes. unfold read_all. rewrite read_frames_good.
  replace (match t with BadLen => 0 + 1 | _ => 0 end) with 0 by (destruct t; [reflexivity|reflexivity|congruence]).
  change (0 <? 0) with false. cbn iota.
  unfold all_entries in *. cbn [flat_map] in *. rewrite (entries_of_good _ _ _ _ Hes) in *.
  apply Forall_app in Hok. destruct Hok as [Hok1 Hok2].
  rewrite (replay_entries_ok _ _ _ _ Hok1).
  rewrite IH; [|intros x Hx; apply Hg; right; exact Hx|exact Hok2].
  unfold replay_pure, maxseq. rewrite filter_app, !fold_left_app. reflexivity.
Qed.

Definition snap_ok (c : cfg) (d : dir) (m : manifest) (sdocs : store) (sseq : N) : Prop :=
  opt_or0 (m_snapshot_seq m) = sseq /\
  match m_snapshot m with
  | None => sdocs = [] /\ sseq = 0
  | Some nm => exists k sn, nm = NSnap k /\ dget d nm = Some (FSnap sn) /\ snap_valid sn = true /\
                 sn_docs sn = sdocs /\ sn_last_seq sn = sseq /\ sn_metric sn = c_metric c /\
                 (sdocs <> [] -> sn_dim sn = c_dim c) /\ sorted sdocs
  end.

Lemma wf_dim : forall c, wf_cfg c = true -> 0 < c_dim c /\ 0 < c_capacity c.
Proof.
  intros c H. unfold wf_cfg in H. apply andb_true_iff in H. destruct H as [A B].
  apply N.ltb_lt in A. apply N.ltb_lt in B. split; assumption.
Qed.

Lemma recover_read_ok : forall c d m sdocs sseq nx,
  wf_cfg c = true ->
  dget d NManifest = Some (FManifest m) ->
  snap_ok c d m sdocs sseq ->
  (forall nm, In nm (m_segments m) -> wal_readable d nm) ->
  Forall (entry_ok c nx) (all_entries d (m_segments m)) ->
  recover_read c Strict d
  = Ok (replay_pure sseq sdocs (all_entries d (m_segments m)),
        maxseq sseq (all_entries d (m_segments m)), m).
Proof.
  intros c d m sdocs sseq nx Hwf Hm [Hq Hs] Hg Hok.
  destruct (wf_dim _ Hwf) as [Hdim _].
  unfold recover_read. destruct (N.eqb_spec (c_dim c) 0) as [E|E]; [lia|]. rewrite Hm.
  destruct (m_snapshot m) as [nm|].
  - destruct Hs as (k & sn & -> & Hf & Hv & Hd & Hl & Hme & Hdi & Hso).
    unfold load_with_validation, snap_load. rewrite Hf, Hv.
    assert (Hmet : (match sn_metric sn, c_metric c with
                    | Euclidean, Euclidean | Cosine, Cosine | InnerProduct, InnerProduct => true
                    | _, _ => false end) = true) by (rewrite Hme; destruct (c_metric c); reflexivity).
    rewrite Hmet. cbn [negb].
    assert (Hchk : (negb (match sn_docs sn with [] => true | _ :: _ => false end) && (sn_dim sn =? 0) = false)
                   /\ (negb (match sn_docs sn with [] => true | _ :: _ => false end) && negb (sn_dim sn =? c_dim c) = false)).
    { rewrite Hd. destruct sdocs as [|x r]; [split; reflexivity|].
      rewrite Hdi by discriminate. cbn [negb andb].
      destruct (N.eqb_spec (c_dim c) 0); [lia|]. rewrite N.eqb_refl. split; reflexivity. }
    destruct Hchk as [-> ->].
    rewrite Hd, Hl, (of_list_sorted _ Hso), Hq.
    rewrite (replay_segments_ok c d sseq nx) by assumption.
    rewrite N.ltb_irrefl. reflexivity.
  - destruct Hs as [-> ->]. rewrite Hq.
    rewrite (replay_segments_ok c d 0 nx) by assumption.
    rewrite N.ltb_irrefl. reflexivity.
Qed.

(* documents as the engine stores them: right dimension, already normalised, accepted by the index *)
Definition doc_ok (c : cfg) (d : doc) : Prop :=
  len (d_vec d) = c_dim c /\ normalize_if_needed c (d_vec d) = Some (d_vec d) /\ c_accepts c (d_vec d) = true.

Definition docs_ok (c : cfg) (st : store) : Prop := Forall (fun kd => doc_ok c (snd kd)) st.

Lemma rebuild_docs_ok : forall c st, docs_ok c st -> rebuild_docs c st = Ok st.
Proof.
  intros c st H. induction H as [|[id d] r Hd Hr IH]; [reflexivity|].
  destruct Hd as (H1 & H2 & H3). cbn [snd] in *. cbn [rebuild_docs].
  rewrite H1, N.eqb_refl. cbn [negb]. rewrite H2, IH. destruct d; reflexivity.
Qed.

Lemma accepts_all_ok : forall c st, docs_ok c st ->
  forallb (fun kd : N * doc => c_accepts c (d_vec (snd kd))) st = true.
Proof.
  intros c st H. induction H as [|[id d] r Hd Hr IH]; [reflexivity|].
  destruct Hd as (H1 & H2 & H3). cbn [snd] in *. cbn [forallb snd]. rewrite H3, IH. reflexivity.
Qed.

Lemma docs_ok_set : forall c st k d, docs_ok c st -> doc_ok c d -> docs_ok c (set st k d).
Proof. intros c st k d H Hd. apply Forall_set; assumption. Qed.

Lemma docs_ok_remove : forall c st k, docs_ok c st -> docs_ok c (remove st k).
Proof. intros c st k H. apply Forall_remove. exact H. Qed.

Lemma docs_ok_get : forall c st k d, docs_ok c st -> get st k = Some d -> doc_ok c d.
Proof.
  intros c st k d H Hg. apply get_in in Hg. unfold docs_ok in H. rewrite Forall_forall in H.
  apply (H _ Hg).
Qed.

Definition is_wal (nm : name) : Prop := exists k, nm = NWal k.

(* InvD c lst d a nx: directory d, whose active segment is a and whose writer will use sequence number
   nx next, encodes exactly the collection lst (DESIGN.md §3.2 (i)-(iv)). *)
Definition InvD (c : cfg) (lst : store) (d : dir) (a : name) (nx : N) : Prop :=
  exists m sdocs sseq,
    dget d NManifest = Some (FManifest m) /\
    (exists pre, m_segments m = pre ++ [a]) /\
    NoDup (m_segments m) /\
    Forall is_wal (m_segments m) /\
    (forall nm, In nm (m_segments m) -> wal_good d nm) /\
    snap_ok c d m sdocs sseq /\
    Forall (entry_ok c nx) (all_entries d (m_segments m)) /\
    maxseq sseq (all_entries d (m_segments m)) + 1 = nx /\
    replay_pure sseq sdocs (all_entries d (m_segments m)) = lst.

Lemma maxseq_ge : forall es mx, mx <= maxseq mx es.
Proof.
  induction es as [|e r IH]; intros mx; unfold maxseq in *; cbn [fold_left]; [lia|].
  specialize (IH (N.max mx (e_seq e))). lia.
Qed.

Lemma maxseq_app : forall a b mx, maxseq mx (a ++ b) = maxseq (maxseq mx a) b.
Proof. intros. unfold maxseq. apply fold_left_app. Qed.

Lemma maxseq_le_all : forall es mx, Forall (fun e => e_seq e <= mx) es -> maxseq mx es = mx.
Proof.
  induction es as [|e r IH]; intros mx H; unfold maxseq in *; cbn [fold_left]; [reflexivity|].
  inversion H as [|x l Hx Hr]; subst. replace (N.max mx (e_seq e)) with mx by lia. apply IH; assumption.
Qed.

Lemma all_entries_app : forall d a b, all_entries d (a ++ b) = all_entries d a ++ all_entries d b.
Proof. intros. unfold all_entries. apply flat_map_app. Qed.

Lemma entries_of_agree : forall d d' x, dget d' x = dget d x -> entries_of d' x = entries_of d x.
Proof. intros d d' x H. unfold entries_of. rewrite H. reflexivity. Qed.

Lemma all_entries_agree : forall d d' segs,
  (forall x, In x segs -> dget d' x = dget d x) -> all_entries d' segs = all_entries d segs.
Proof.
  intros d d'. induction segs as [|x r IH]; intros H; [reflexivity|].
  unfold all_entries in *. cbn [flat_map]. rewrite (entries_of_agree d d' x) by (apply H; left; reflexivity).
  rewrite IH; [reflexivity|]. intros y Hy. apply H. right. exact Hy.
Qed.

Lemma wal_good_agree : forall d d' x, dget d' x = dget d x -> wal_good d x -> wal_good d' x.
Proof. intros d d' x H [es He]. exists es. rewrite H. exact He. Qed.

Lemma snap_ok_agree : forall c d d' m sdocs sseq,
  (forall nm, m_snapshot m = Some nm -> dget d' nm = dget d nm) ->
  snap_ok c d m sdocs sseq -> snap_ok c d' m sdocs sseq.
Proof.
  intros c d d' m sdocs sseq H [Hq Hs]. split; [exact Hq|].
  destruct (m_snapshot m) as [nm|]; [|exact Hs].
  destruct Hs as (k & sn & E & Hf & R). exists k, sn. split; [exact E|]. split; [|exact R].
  rewrite H by reflexivity. exact Hf.
Qed.

Lemma is_wal_neq : forall x, is_wal x ->
  x <> NManifest /\ x <> NManifestTmp /\ (forall k, x <> NSnap k) /\ (forall k, x <> NSnapTmp k).
Proof. intros x [k ->]. repeat split; intros; discriminate. Qed.

(* consecutive sequence numbers, as assigned by fetch_add *)
Fixpoint seqs_from (b : N) (es : list entry) : Prop :=
  match es with
  | [] => True
  | e :: r => e_seq e = b /\ seqs_from (b + 1) r
  end.

Lemma len_cons : forall A (x : A) l, len (x :: l) = len l + 1.
Proof. intros. unfold len. cbn [length]. rewrite Nat2N.inj_succ. lia. Qed.

Lemma len_nil : forall A, len (@nil A) = 0.
Proof. reflexivity. Qed.

Lemma seqs_from_range : forall es b, seqs_from b es ->
  Forall (fun e => b <= e_seq e /\ e_seq e < b + len es) es.
Proof.
  induction es as [|e r IH]; intros b H; [constructor|].
  destruct H as [E H]. rewrite len_cons. constructor; [lia|].
  specialize (IH _ H). eapply Forall_impl; [|exact IH]. cbn. intros x Hx. lia.
Qed.

Lemma seqs_from_maxseq : forall es b mx, seqs_from b es -> mx + 1 = b -> maxseq mx es + 1 = b + len es.
Proof.
  induction es as [|e r IH]; intros b mx H Hb.
  - cbn. rewrite len_nil. lia.
  - destruct H as [E H]. cbn [maxseq fold_left]. fold (maxseq (N.max mx (e_seq e)) r).
    rewrite len_cons. rewrite (IH (b + 1) (N.max mx (e_seq e)) H) by lia. lia.
Qed.

Lemma filter_keep_all : forall sseq es, Forall (fun e => sseq < e_seq e) es -> filter (keep_e sseq) es = es.
Proof.
  intros sseq es H. induction H as [|e r He Hr IH]; [reflexivity|].
  cbn [filter]. unfold keep_e at 1. unfold covered.
  replace (e_seq e <=? sseq) with false by (symmetry; apply N.leb_gt; exact He).
  rewrite !andb_false_r. cbn [negb]. rewrite IH. reflexivity.
Qed.

Lemma filter_keep_none : forall sseq es, Forall (fun e => 1 <= e_seq e /\ e_seq e <= sseq) es ->
  filter (keep_e sseq) es = [].
Proof.
  intros sseq es H. induction H as [|e r He Hr IH]; [reflexivity|].
  cbn [filter]. unfold keep_e at 1. unfold covered.
  replace (0 <? e_seq e) with true by (symmetry; apply N.ltb_lt; lia).
  replace (0 <? sseq) with true by (symmetry; apply N.ltb_lt; lia).
  replace (e_seq e <=? sseq) with true by (symmetry; apply N.leb_le; lia).
  cbn [andb negb]. exact IH.
Qed.

Lemma InvD_intro : forall c lst d a nx m sdocs sseq,
  dget d NManifest = Some (FManifest m) ->
  (exists pre, m_segments m = pre ++ [a]) ->
  NoDup (m_segments m) ->
  Forall is_wal (m_segments m) ->
  (forall nm, In nm (m_segments m) -> wal_good d nm) ->
  snap_ok c d m sdocs sseq ->
  Forall (entry_ok c nx) (all_entries d (m_segments m)) ->
  maxseq sseq (all_entries d (m_segments m)) + 1 = nx ->
  replay_pure sseq sdocs (all_entries d (m_segments m)) = lst ->
  InvD c lst d a nx.
Proof.
  intros c lst d a nx m sdocs sseq H1 H2 H3 H4 H5 H6 H7 H8 H9. exists m, sdocs, sseq.
  exact (conj H1 (conj H2 (conj H3 (conj H4 (conj H5 (conj H6 (conj H7 (conj H8 H9)))))))).
Qed.

Lemma snap_ok_name : forall c d m sdocs sseq nm, snap_ok c d m sdocs sseq -> m_snapshot m = Some nm ->
  exists k, nm = NSnap k.
Proof. intros c d m sdocs sseq nm [_ Hs] E. rewrite E in Hs. destruct Hs as (k & sn & -> & _). exists k. reflexivity. Qed.

Lemma InvD_wal : forall c lst d a nx m, InvD c lst d a nx -> dget d NManifest = Some (FManifest m) ->
  is_wal a /\ forall x, In x (m_segments m) -> is_wal x.
Proof.
  intros c lst d a nx m (m' & _ & _ & Hm' & [pre Hpre] & _ & Hw & _) Hm. rewrite Hm in Hm'. inversion Hm'; subst m'.
  rewrite Forall_forall in Hw. split; [apply Hw; rewrite Hpre; apply in_or_app; right; left; reflexivity|exact Hw].
Qed.

Lemma InvD_append : forall c lst d a nx es,
  InvD c lst d a nx -> seqs_from nx es ->
  Forall (fun e => e_op e = Ins -> len (e_vec e) = c_dim c) es ->
  InvD c (fold_left apply_entry es lst) (apply_effs d (append_effs a es ++ fsync_effs c a)) a (nx + len es).
Proof.
  intros c lst d a nx es (m & sdocs & sseq & Hm & [pre Hpre] & Hnd & Hw & Hg & Hs & Hok & Hmx & Hrp) Hsq Hdim.
  rewrite apply_effs_app, fsync_effs_nop.
  set (d' := apply_effs d (append_effs a es)).
  assert (Ha : In a (m_segments m)) by (rewrite Hpre; apply in_or_app; right; left; reflexivity).
  assert (Hwa : is_wal a) by (rewrite Forall_forall in Hw; apply Hw; exact Ha).
  destruct (is_wal_neq _ Hwa) as (N1 & N2 & N3 & N4).
  destruct (Hg a Ha) as [es0 Hes0].
  assert (Hna : ~ In a pre)
    by (rewrite Hpre in Hnd; apply NoDup_remove_2 in Hnd; rewrite app_nil_r in Hnd; exact Hnd).
  assert (Hother : forall x, x <> a -> dget d' x = dget d x) by (intros x Hx; apply append_other; exact Hx).
  assert (Hent : all_entries d' (m_segments m) = all_entries d (m_segments m) ++ es).
  { rewrite Hpre, !all_entries_app.
    rewrite (all_entries_agree d d' pre) by (intros x Hx; apply Hother; intro; subst; contradiction).
    rewrite <- app_assoc. f_equal. unfold all_entries. cbn [flat_map]. rewrite !app_nil_r.
    rewrite (entries_of_good _ _ _ _ Hes0).
    apply (entries_of_good d' a (es0 ++ es) Clean). apply append_get. exact Hes0. }
  pose proof (seqs_from_range _ _ Hsq) as Hrange.
  pose proof (maxseq_ge (all_entries d (m_segments m)) sseq) as Hge.
  apply (InvD_intro c _ d' a _ m sdocs sseq).
  - rewrite Hother by congruence. exact Hm.
  - exists pre. exact Hpre.
  - exact Hnd.
  - exact Hw.
  - intros nm Hin. destruct (name_eqb_spec nm a) as [->|Hne].
    + exists (es0 ++ es). apply append_get. exact Hes0.
    + apply (wal_good_agree d d'); [apply Hother; exact Hne|apply Hg; exact Hin].
  - apply (snap_ok_agree c d d'); [|exact Hs]. intros nm E. apply Hother.
    destruct (snap_ok_name _ _ _ _ _ _ Hs E) as [k ->]. apply not_eq_sym, N3.
  - rewrite Hent. apply Forall_app. split.
    + eapply Forall_impl; [|exact Hok]. intros e (A & B & C). repeat split; [exact A|lia|exact C].
    + rewrite Forall_forall in *. intros e He. specialize (Hrange e He). specialize (Hdim e He).
      repeat split; [lia|lia|exact Hdim].
  - rewrite Hent, maxseq_app. apply seqs_from_maxseq; [exact Hsq|exact Hmx].
  - rewrite Hent. unfold replay_pure in *. rewrite filter_app, fold_left_app, Hrp.
    rewrite filter_keep_all; [reflexivity|].
    eapply Forall_impl; [|exact Hrange]. cbn. intros e He. lia.
Qed.

Lemma InvD_newseg : forall c lst d a nx m,
  InvD c lst d a nx -> dget d NManifest = Some (FManifest m) ->
  InvD c lst
    (apply_effs (apply_effs d (new_wal_effs (NWal (fresh_id d))))
       (save_manifest_effs (mkManifest (m_snapshot m) (m_snapshot_seq m) (m_segments m ++ [NWal (fresh_id d)]))))
    (NWal (fresh_id d)) nx.
Proof.
  intros c lst d a nx m0 (m & sdocs & sseq & Hm & [pre Hpre] & Hnd & Hw & Hg & Hs & Hok & Hmx & Hrp) Hm0.
  rewrite Hm in Hm0. inversion Hm0; subst m0. clear Hm0.
  set (f := NWal (fresh_id d)).
  set (m' := mkManifest (m_snapshot m) (m_snapshot_seq m) (m_segments m ++ [f])).
  set (d1 := apply_effs d (new_wal_effs f)).
  set (d' := apply_effs d1 (save_manifest_effs m')).
  assert (Hf : dget d f = None) by (apply fresh_none; reflexivity).
  assert (Hother : forall x, x <> f -> x <> NManifest -> x <> NManifestTmp -> dget d' x = dget d x).
  { intros x A B C. unfold d'. rewrite save_manifest_other by assumption.
    unfold d1. apply new_wal_other; assumption. }
  assert (Hseg : forall x, In x (m_segments m) -> dget d' x = dget d x).
  { intros x Hx. assert (Hwx : is_wal x) by (rewrite Forall_forall in Hw; apply Hw; exact Hx).
    destruct (is_wal_neq _ Hwx) as (N1 & N2 & _). apply Hother; try assumption.
    intro; subst x. destruct (Hg f Hx) as [es He]. rewrite Hf in He. discriminate. }
  assert (Hff : dget d' f = Some (FWal [] Clean)).
  { unfold d'. rewrite save_manifest_other by (unfold f; discriminate). unfold d1. apply new_wal_get. exact Hf. }
  assert (Hent : all_entries d' (m_segments m ++ [f]) = all_entries d (m_segments m)).
  { rewrite all_entries_app, (all_entries_agree d d' _ Hseg).
    unfold all_entries at 2. cbn [flat_map]. unfold entries_of. rewrite Hff. cbn. rewrite !app_nil_r. reflexivity. }
  apply (InvD_intro c _ d' f _ m' sdocs sseq); cbn [m_segments m'].
  - unfold d'. apply save_manifest_get.
  - exists (m_segments m). reflexivity.
  - apply NoDup_snoc; [exact Hnd|]. intro Hin. destruct (Hg f Hin) as [es He]. rewrite Hf in He. discriminate.
  - apply Forall_app. split; [exact Hw|]. constructor; [exists (fresh_id d); reflexivity|constructor].
  - intros nm Hin. apply in_app_or in Hin. destruct Hin as [Hin|[<-|[]]].
    + apply (wal_good_agree d d'); [apply Hseg; exact Hin|apply Hg; exact Hin].
    + exists []. exact Hff.
  - apply (snap_ok_agree c d d' m); [|exact Hs]. intros nm E.
    destruct (snap_ok_name _ _ _ _ _ _ Hs E) as [k ->]. apply Hother; unfold f; discriminate.
  - rewrite Hent. exact Hok.
  - rewrite Hent. exact Hmx.
  - rewrite Hent. exact Hrp.
Qed.

(* fate of a listed segment other than the active one: Some true = kept, Some false = deleted,
   None = missing, dropped from the list *)
Definition seg_fate (d : dir) (q : N) (nm : name) : option bool :=
  match dget d nm with
  | None => None
  | Some (FWal frs t) => let '(es, co) := read_all frs t in Some ((0 <? co) || negb (forallb (covered q) es))
  | Some _ => Some true
  end.
Definition keptb d q nm := match seg_fate d q nm with Some true => true | _ => false end.
Definition delb d q nm := match seg_fate d q nm with Some false => true | _ => false end.

Lemma compact_segments_snoc : forall d q pre a,
  compact_segments d q (pre ++ [a]) = (filter (keptb d q) pre ++ [a], filter (delb d q) pre).
Proof.
  intros d q. induction pre as [|nm r IH]; intros a; [reflexivity|].
  cbn [app filter]. specialize (IH a). destruct (r ++ [a]) as [|y t] eqn:E; [destruct r; discriminate|].
  change (compact_segments d q (nm :: y :: t)) with
    (let '(k, del) := compact_segments d q (y :: t) in
     match dget d nm with
     | None => (k, del)
     | Some (FWal frs t) =>
         let '(es, corrupted) := read_all frs t in
         if (0 <? corrupted) || negb (forallb (covered q) es) then (nm :: k, del) else (k, nm :: del)
     | Some _ => (nm :: k, del)
     end).
  rewrite IH. unfold keptb, delb, seg_fate.
  destruct (dget d nm) as [[| frs tl | | |]|]; try reflexivity.
  destruct (read_all frs tl) as [es co]. destruct ((0 <? co) || negb (forallb (covered q) es)); reflexivity.
Qed.

Lemma compact_props : forall d q pre a k del, compact_segments d q (pre ++ [a]) = (k, del) ->
  (forall x, In x k -> In x (pre ++ [a])) /\ (forall x, In x del -> In x (pre ++ [a])) /\
  (exists pre', k = pre' ++ [a]) /\
  (NoDup (pre ++ [a]) -> NoDup k /\ forall x, In x del -> ~ In x k).
Proof.
  intros d q pre a k del H. rewrite compact_segments_snoc in H. inversion H; subst. clear H.
  split; [|split; [|split]].
  - intros x Hx. apply in_app_or in Hx. apply in_or_app. destruct Hx as [Hx|Hx]; [left|right; exact Hx].
    apply filter_In in Hx. tauto.
  - intros x Hx. apply filter_In in Hx. apply in_or_app. tauto.
  - eexists. reflexivity.
  - intros Hn. pose proof (NoDup_remove_1 _ _ _ Hn) as N1. pose proof (NoDup_remove_2 _ _ _ Hn) as N2.
    rewrite app_nil_r in N1, N2. split.
    + apply NoDup_snoc; [apply NoDup_filter; exact N1|]. intro Hx. apply filter_In in Hx. tauto.
    + intros x Hd Hk. apply filter_In in Hd. destruct Hd as [Hd1 Hd2].
      apply in_app_or in Hk. destruct Hk as [Hk|[<-|[]]]; [|contradiction].
      apply filter_In in Hk. destruct Hk as [_ Hk]. unfold keptb, delb in *.
      destruct (seg_fate d q x) as [[|]|]; discriminate.
Qed.

Lemma sorted_nodupb : forall (st : store), sorted st -> nodupb (map fst st) = true.
Proof.
  induction st as [|[k v] r IH]; intros H; [reflexivity|].
  destruct H as [Hlt Hs]. cbn [map fst nodupb]. rewrite (lt_all_not_in r k Hlt). cbn [negb andb].
  apply IH. exact Hs.
Qed.

Definition store_dim (st : store) : N := match st with [] => 0 | (_, d) :: _ => len (d_vec d) end.

Lemma snap_valid_store : forall c st mt last, sorted st -> docs_ok c st ->
  snap_valid (mkSnap (store_dim st) mt st last) = true /\ (st <> [] -> store_dim st = c_dim c).
Proof.
  intros c st mt last Hs Hd. unfold snap_valid. cbn [sn_dim sn_docs].
  rewrite (sorted_nodupb _ Hs), andb_true_r.
  destruct st as [|[k d] r]; [split; [reflexivity|intros H; contradiction]|].
  assert (E : store_dim ((k, d) :: r) = c_dim c).
  { inversion Hd as [|x l Hx Hr]; subst. destruct Hx as (A & _). exact A. }
  split; [|intros _; exact E]. rewrite E. apply orb_true_iff. right.
  apply forallb_forall. intros [k' d'] Hin. unfold docs_ok in Hd. rewrite Forall_forall in Hd.
  destruct (Hd _ Hin) as (A & _). cbn [snd] in *. rewrite A. apply N.eqb_refl.
Qed.

Lemma in_all_entries_sub : forall d k segs e,
  (forall x, In x k -> In x segs) -> In e (all_entries d k) -> In e (all_entries d segs).
Proof.
  intros d k segs e H Hin. unfold all_entries in *. apply in_flat_map in Hin. destruct Hin as (x & Hx & He).
  apply in_flat_map. exists x. split; [apply H; exact Hx|exact He].
Qed.

Definition InvDs (c : cfg) (lst : store) (s : state) : Prop :=
  InvD c lst (st_disk s) (st_active s) (st_next_seq s).

(* create_snapshot as four blocks of effects: the snapshot file; the manifest pointing at it; if a segment
   can go, the manifest with the pruned list and then the unlinks; the final manifest *)
Definition snap_of (c : cfg) (s : state) : snapshot :=
  mkSnap (store_dim (st_store s)) (c_metric c) (st_store s) (N.pred (st_next_seq s)).
Definition snap_manifest (s : state) (segs : list name) : manifest :=
  mkManifest (Some (NSnap (fresh_id (st_disk s)))) (Some (N.pred (st_next_seq s))) segs.
Definition prune_effs (s : state) (keep del : list name) : list eff :=
  (match del with [] => [] | _ :: _ => save_manifest_effs (snap_manifest s keep) end) ++ map EUnlink del.
Definition snap_effs (c : cfg) (s : state) (segs keep del : list name) : list eff :=
  save_snapshot_effs (fresh_id (st_disk s)) (snap_of c s) ++ save_manifest_effs (snap_manifest s segs)
  ++ prune_effs s keep del ++ save_manifest_effs (snap_manifest s keep).

Lemma create_snapshot_shape : forall c s,
  InvDs c (st_store s) s -> sorted (st_store s) -> docs_ok c (st_store s) ->
  exists m keep del,
    dget (st_disk s) NManifest = Some (FManifest m) /\
    N.pred (st_next_seq s) + 1 = st_next_seq s /\
    (forall x, In x keep -> In x (m_segments m)) /\ (forall x, In x del -> In x (m_segments m)) /\
    NoDup keep /\ (forall x, In x del -> ~ In x keep) /\ (exists pre', keep = pre' ++ [st_active s]) /\
    create_snapshot c s =
      (with_since (with_disk s (apply_effs (st_disk s) (snap_effs c s (m_segments m) keep del))) 0, OOk,
       snap_effs c s (m_segments m) keep del).
Proof.
  intros c s (m & sdocs & sseq & Hm & [pre Hpre] & Hnd & Hw & Hg & [Hq Hs] & Hok & Hmx & Hrp) Hso Hdo.
  unfold create_snapshot. fold (store_dim (st_store s)). fold (snap_of c s).
  destruct (snap_valid_store c (st_store s) (c_metric c) (N.pred (st_next_seq s)) Hso Hdo) as [Hv _].
  fold (snap_of c s) in Hv. rewrite Hv. cbn [negb].
  set (e1 := save_snapshot_effs (fresh_id (st_disk s)) (snap_of c s)).
  assert (Hm1 : load_manifest (apply_effs (st_disk s) e1) = Some m).
  { unfold load_manifest, e1. rewrite save_snapshot_other by discriminate. rewrite Hm. reflexivity. }
  rewrite Hm1, Hq.
  pose proof (maxseq_ge (all_entries (st_disk s) (m_segments m)) sseq) as Hge.
  replace (N.pred (st_next_seq s) <? sseq) with false by (symmetry; apply N.ltb_ge; lia).
  fold (snap_manifest s (m_segments m)).
  destruct (compact_segments _ (N.pred (st_next_seq s)) (m_segments m)) as [keep del] eqn:EC.
  rewrite Hpre in EC, Hnd. destruct (compact_props _ _ _ _ _ _ EC) as (C1 & C2 & C4 & C3).
  destruct (C3 Hnd) as [Cnd Cdis]. rewrite <- Hpre in C1, C2.
  exists m, keep, del. fold (snap_manifest s keep). fold (prune_effs s keep del).
  repeat (split; [first [assumption|lia]|]).
  unfold snap_effs. fold e1. rewrite !apply_effs_app. reflexivity.
Qed.

(* any directory that holds the snapshot of the live store st, taken at `last`, and lists under it a
   sub-list of the old segments, untouched, encodes st: every listed entry is covered by the snapshot *)
Lemma snapshot_encodes : forall c d0 a nx st m0 d segs' k last,
  InvD c st d0 a nx -> sorted st -> docs_ok c st -> last + 1 = nx ->
  dget d0 NManifest = Some (FManifest m0) -> (forall x, In x segs' -> In x (m_segments m0)) ->
  dget d (NSnap k) = Some (FSnap (mkSnap (store_dim st) (c_metric c) st last)) ->
  (forall x, In x segs' -> dget d x = dget d0 x) ->
  Forall is_wal segs' /\ (forall nm, In nm segs' -> wal_good d nm) /\
  snap_ok c d (mkManifest (Some (NSnap k)) (Some last) segs') st last /\
  Forall (entry_ok c nx) (all_entries d segs') /\ maxseq last (all_entries d segs') + 1 = nx /\
  replay_pure last st (all_entries d segs') = st.
Proof.
  intros c d0 a nx st m0 d segs' k last
    (m & sdocs & sseq & Hm & Hpre & Hnd & Hw & Hg & Hs & Hok & Hmx & Hrp) Hso Hdo Hlast Hm0 Hsub Hsn Hag.
  rewrite Hm in Hm0. inversion Hm0; subst m0. clear Hm0.
  destruct (snap_valid_store c st (c_metric c) last Hso Hdo) as [Hv Hdim].
  rewrite (all_entries_agree d0 d segs' Hag).
  assert (Hin : forall e, In e (all_entries d0 segs') -> entry_ok c nx e).
  { intros e He. apply (in_all_entries_sub d0 segs' (m_segments m) e Hsub) in He.
    rewrite Forall_forall in Hok. exact (Hok _ He). }
  assert (Hall : Forall (fun e => 1 <= e_seq e /\ e_seq e <= last) (all_entries d0 segs')).
  { apply Forall_forall. intros e He. destruct (Hin e He) as (A & B & _). lia. }
  split; [apply Forall_forall; intros x Hx; rewrite Forall_forall in Hw; exact (Hw _ (Hsub _ Hx))|].
  split; [intros nm Hi; apply (wal_good_agree d0 d); [exact (Hag _ Hi)|exact (Hg _ (Hsub _ Hi))]|].
  split; [|split; [apply Forall_forall; exact Hin|split]].
  - split; [reflexivity|]. exists k, (mkSnap (store_dim st) (c_metric c) st last). cbn [m_snapshot].
    repeat (split; [first [reflexivity|assumption]|]). exact Hso.
  - rewrite maxseq_le_all; [exact Hlast|]. eapply Forall_impl; [|exact Hall]. cbn. intros e He. lia.
  - unfold replay_pure. rewrite (filter_keep_none _ _ Hall). reflexivity.
Qed.

Lemma create_snapshot_inv : forall c s,
  InvDs c (st_store s) s -> sorted (st_store s) -> docs_ok c (st_store s) ->
  InvDs c (st_store s) (fst (fst (create_snapshot c s))).
Proof.
  intros c s H Hso Hdo.
  destruct (create_snapshot_shape c s H Hso Hdo) as (m & keep & del & Hm & Hlast & C1 & C2 & Cnd & Cdis & Hpre' & ->).
  pose proof (proj2 (InvD_wal _ _ _ _ _ _ H Hm)) as Hwal.
  unfold InvDs. cbn [fst with_since with_disk st_disk st_active st_next_seq].
  set (d := st_disk s) in *. set (k := fresh_id d).
  set (d' := apply_effs d (snap_effs c s (m_segments m) keep del)).
  (* the blocks leave alone what they do not name *)
  assert (Hd' : forall x, ~ In x del -> x <> NManifest -> x <> NManifestTmp -> x <> NSnapTmp k ->
            dget d' x = dget (apply_effs d (save_snapshot_effs k (snap_of c s))) x).
  { intros x Nd N1 N2 N3. unfold d', snap_effs, prune_effs. rewrite !apply_effs_app.
    rewrite save_manifest_other by assumption. rewrite unlinks_other by exact Nd.
    destruct del; [cbn [app apply_effs fold_left]|]; rewrite !save_manifest_other by assumption; reflexivity. }
  assert (Hkeep : forall x, In x keep -> dget d' x = dget d x).
  { intros x Hx. destruct (is_wal_neq _ (Hwal _ (C1 _ Hx))) as (N1 & N2 & N3 & N4).
    rewrite Hd'; [|intro Hin; apply (Cdis _ Hin Hx)|assumption|assumption|apply N4].
    apply save_snapshot_other; [apply N3|apply N4]. }
  assert (Hsnapf : dget d' (NSnap k) = Some (FSnap (snap_of c s))).
  { rewrite Hd'; try discriminate; [apply save_snapshot_get|].
    intro Hin. destruct (Hwal _ (C2 _ Hin)) as [j Hj]. discriminate. }
  destruct (snapshot_encodes c d _ _ _ m d' keep k _ H Hso Hdo Hlast Hm C1 Hsnapf Hkeep) as (E1 & E2 & E3 & E4 & E5 & E6).
  apply (InvD_intro c _ d' _ _ (snap_manifest s keep) (st_store s) (N.pred (st_next_seq s))); try assumption.
  unfold d', snap_effs. rewrite !app_assoc, apply_effs_app. apply save_manifest_get.
Qed.

Definition InvM (c : cfg) (s : state) : Prop :=
  sorted (st_store s) /\ docs_ok c (st_store s) /\
  size (st_store s) <= st_slots s /\ st_slots s <= c_capacity c.

(* Backend.Inv of DESIGN.md §3.2 *)
Definition Inv (c : cfg) (s : state) : Prop := InvDs c (st_store s) s /\ InvM c s.

Lemma InvM_eq : forall c s s', st_store s' = st_store s -> st_slots s' = st_slots s -> InvM c s -> InvM c s'.
Proof. intros c s s' E1 E2 H. unfold InvM in *. rewrite E1, E2. exact H. Qed.

Lemma InvDs_has_manifest : forall c lst s, InvDs c lst s -> has_manifest (st_disk s) = true.
Proof. intros c lst s (m & sdocs & sseq & Hm & _). unfold has_manifest. rewrite Hm. reflexivity. Qed.

(* Appending, rotating and snapshotting change neither the collection nor the slot count, and leave the old
   directory with their effects applied, in any state. *)
Lemma append_mem : forall c s es s1 e1, append_entries c s es = (s1, e1) ->
  st_store s1 = st_store s /\ st_slots s1 = st_slots s.
Proof. intros c s es s1 e1 H. unfold append_entries in H. inversion H. auto. Qed.

Lemma rotate_mem : forall c s, let s' := fst (rotate_if_needed c s) in
  st_store s' = st_store s /\ st_slots s' = st_slots s.
Proof.
  intros c s. unfold rotate_if_needed.
  destruct ((c_max_wal c =? 0) || (st_bytes s <? c_max_wal c)); [auto|]. destruct (load_manifest _); auto.
Qed.

Lemma create_snapshot_mem : forall c s, let s' := fst (fst (create_snapshot c s)) in
  st_store s' = st_store s /\ st_slots s' = st_slots s.
Proof.
  intros c s. unfold create_snapshot. destruct (negb (snap_valid _)); [auto|].
  destruct (load_manifest _) as [m|]; [|auto].
  destruct (N.pred (st_next_seq s) <? opt_or0 (m_snapshot_seq m)); [auto|].
  destruct (compact_segments _ _ _). auto.
Qed.

Lemma maybe_snapshot_cases : forall c s, maybe_snapshot c s = (s, []) \/
  maybe_snapshot c s = (fst (fst (create_snapshot c s)), snd (create_snapshot c s)).
Proof.
  intros c s. unfold maybe_snapshot.
  destruct ((0 <? c_snapshot_interval c) && (c_snapshot_interval c <=? st_since_snap s)); [right|left; reflexivity].
  destruct (create_snapshot c s) as [[s' o] e]. reflexivity.
Qed.

Lemma maybe_snapshot_mem : forall c s, let s' := fst (maybe_snapshot c s) in
  st_store s' = st_store s /\ st_slots s' = st_slots s.
Proof. intros c s. destruct (maybe_snapshot_cases c s) as [-> | ->]; [auto|apply create_snapshot_mem]. Qed.

Lemma append_disk : forall c s es s1 e1, append_entries c s es = (s1, e1) ->
  st_disk s1 = apply_effs (st_disk s) e1.
Proof. intros c s es s1 e1 H. unfold append_entries in H. inversion H; subst. reflexivity. Qed.

Lemma rotate_disk : forall c s s2 e2, rotate_if_needed c s = (s2, e2) ->
  st_disk s2 = apply_effs (st_disk s) e2.
Proof.
  intros c s s2 e2 H. change (st_disk (fst (s2, e2)) = apply_effs (st_disk s) (snd (s2, e2))). rewrite <- H. clear H.
  unfold rotate_if_needed. destruct ((c_max_wal c =? 0) || (st_bytes s <? c_max_wal c)); [reflexivity|].
  destruct (load_manifest _); cbn [fst snd st_disk with_disk]; rewrite ?apply_effs_app; reflexivity.
Qed.

Lemma create_snapshot_disk : forall c s s' o e, create_snapshot c s = (s', o, e) ->
  st_disk s' = apply_effs (st_disk s) e.
Proof.
  intros c s s' o e H. change (st_disk (fst (fst (s', o, e))) = apply_effs (st_disk s) (snd (s', o, e))). rewrite <- H. clear H.
  unfold create_snapshot. destruct (snap_valid _); cbn [negb]; [|reflexivity].
  destruct (load_manifest _) as [m|]; [|reflexivity].
  destruct (N.pred (st_next_seq s) <? opt_or0 (m_snapshot_seq m)).
  - cbn [fst snd st_disk with_disk]. rewrite apply_effs_app. reflexivity.
  - destruct (compact_segments _ _ _) as [keep del].
    cbn [fst snd st_disk with_disk with_since]. rewrite !apply_effs_app. reflexivity.
Qed.

Lemma maybe_snapshot_disk : forall c s s4 e4, maybe_snapshot c s = (s4, e4) ->
  st_disk s4 = apply_effs (st_disk s) e4.
Proof.
  intros c s s4 e4 H. destruct (maybe_snapshot_cases c s) as [E|E]; rewrite E in H; inversion H; subst; [reflexivity|].
  destruct (create_snapshot c s) as [[s' o] e] eqn:E'. exact (create_snapshot_disk _ _ _ _ _ E').
Qed.

Lemma append_inv : forall c lst s es,
  InvDs c lst s -> seqs_from (st_next_seq s) es ->
  Forall (fun e => e_op e = Ins -> len (e_vec e) = c_dim c) es ->
  InvDs c (fold_left apply_entry es lst) (fst (append_entries c s es)).
Proof. intros c lst s es H Hs Hd. apply InvD_append; assumption. Qed.

Lemma rotate_cases : forall c lst s, InvDs c lst s ->
  rotate_if_needed c s = (s, []) \/
  exists m, dget (st_disk s) NManifest = Some (FManifest m) /\
    let f := NWal (fresh_id (st_disk s)) in
    let E := new_wal_effs f ++ save_manifest_effs (mkManifest (m_snapshot m) (m_snapshot_seq m) (m_segments m ++ [f])) in
    rotate_if_needed c s
    = (mkState (st_store s) (st_slots s) (st_next_seq s) (st_since_snap s) f 4 (apply_effs (st_disk s) E), E).
Proof.
  intros c lst s (m & _ & _ & Hm & _). unfold rotate_if_needed.
  destruct ((c_max_wal c =? 0) || (st_bytes s <? c_max_wal c)); [left; reflexivity|]. right. exists m. split; [exact Hm|].
  assert (Hl : load_manifest (apply_effs (st_disk s) (new_wal_effs (NWal (fresh_id (st_disk s))))) = Some m).
  { unfold load_manifest. rewrite new_wal_other; [rewrite Hm; reflexivity|apply fresh_none; reflexivity|discriminate]. }
  cbv zeta. rewrite Hl, apply_effs_app. reflexivity.
Qed.

Lemma rotate_inv : forall c lst s, InvDs c lst s ->
  InvDs c lst (fst (rotate_if_needed c s)).
Proof.
  intros c lst s H. destruct (rotate_cases c lst s H) as [->|(m & Hm & ->)]; [exact H|].
  unfold InvDs. cbn [fst st_disk st_active st_next_seq]. rewrite apply_effs_app.
  exact (InvD_newseg c lst (st_disk s) (st_active s) (st_next_seq s) m H Hm).
Qed.

Lemma manual_snapshot_inv : forall c s, Inv c s -> Inv c (fst (fst (create_snapshot c s))).
Proof.
  intros c s [H M]. pose proof M as (A & B & _). destruct (create_snapshot_mem c s) as [E1 E2].
  split; [rewrite E1; exact (create_snapshot_inv c s H A B)|]. apply (InvM_eq c s); assumption.
Qed.

Lemma finish_with_snapshot : forall c s, Inv c s -> Inv c (fst (maybe_snapshot c s)).
Proof. intros c s HI. destruct (maybe_snapshot_cases c s) as [-> | ->]; [exact HI|exact (manual_snapshot_inv c s HI)]. Qed.

Lemma recover_full_Inv : forall c s m, wf_cfg c = true -> Inv c s ->
  dget (st_disk s) NManifest = Some (FManifest m) ->
  let f := NWal (fresh_id (st_disk s)) in
  let effs := new_wal_effs f ++ save_manifest_effs (mkManifest (m_snapshot m) (m_snapshot_seq m) (m_segments m ++ [f])) in
  recover_full c Strict (st_disk s)
  = Ok (mkState (st_store s) (size (st_store s)) (st_next_seq s) 0 f 4 (apply_effs (st_disk s) effs), effs).
Proof.
  intros c s m0 Hwf [H (Mso & Mdo & Msz & Mcap)] Hm0.
  destruct H as (m & sdocs & sseq & Hm & Hpre & Hnd & Hw & Hg & Hs & Hok & Hmx & Hrp).
  rewrite Hm in Hm0. inversion Hm0; subst m0. unfold recover_full.
  rewrite (recover_read_ok c (st_disk s) m sdocs sseq (st_next_seq s) Hwf Hm Hs
             (fun nm Hin => wal_good_readable _ _ (Hg nm Hin)) Hok).
  rewrite Hrp, (rebuild_docs_ok c _ Mdo).
  rewrite (proj2 (N.ltb_ge _ _)) by lia. rewrite (accepts_all_ok c _ Mdo), Hmx. reflexivity.
Qed.

Lemma recover_inv : forall c s, wf_cfg c = true -> Inv c s ->
  exists s' effs, recover_full c Strict (st_disk s) = Ok (s', effs) /\
    st_store s' = st_store s /\ st_next_seq s' = st_next_seq s /\ Inv c s' /\
    st_disk s' = apply_effs (st_disk s) effs.
Proof.
  intros c s Hwf HI. pose proof HI as [H (Mso & Mdo & Msz & Mcap)].
  pose proof H as (m & _ & _ & Hm & _).
  eexists. eexists. split; [exact (recover_full_Inv c s m Hwf HI Hm)|]. cbn [st_store st_next_seq st_disk].
  repeat (split; [reflexivity|]). split; [|reflexivity]. split.
  - unfold InvDs. cbn [st_store st_disk st_active st_next_seq]. rewrite apply_effs_app.
    exact (InvD_newseg c (st_store s) (st_disk s) (st_active s) (st_next_seq s) m H Hm).
  - unfold InvM. cbn [st_store st_slots]. repeat split; try assumption; lia.
Qed.

(* The assumption about the outside world (DESIGN.md "Common persistence model"): normalisation is
   length-preserving and bitwise idempotent.  Measured by the harness on every vector it uses. *)
Definition norm_ok (c : cfg) : Prop :=
  forall v w, c_normalize c v = Some w -> length w = length v /\ c_normalize c w = Some w.

(* All the proofs need of it: the same, for normalised vectors that the index accepts (the only ones that
   are ever stored).  The code's normalisation is not idempotent on the others: an overflowing vector goes
   to zero, and zero is refused. *)
Definition norm_ok_acc (c : cfg) : Prop :=
  forall v w, c_normalize c v = Some w -> c_accepts c w = true ->
              length w = length v /\ c_normalize c w = Some w.

Lemma norm_ok_weaken : forall c, norm_ok c -> norm_ok_acc c.
Proof. intros c H v w Hw _. exact (H v w Hw). Qed.

Lemma normalize_doc_ok : forall c v w mt, norm_ok_acc c -> len v = c_dim c ->
  normalize_if_needed c v = Some w -> c_accepts c w = true -> doc_ok c (mkDoc w mt) /\ len w = c_dim c.
Proof.
  intros c v w mt Hn Hl Hw Ha. unfold doc_ok, normalize_if_needed in *. cbn [d_vec].
  destruct (c_metric c).
  - inversion Hw; subst. auto.
  - destruct (Hn _ _ Hw Ha) as [L I]. unfold len in *. rewrite L. auto.
  - destruct (Hn _ _ Hw Ha) as [L I]. unfold len in *. rewrite L. auto.
Qed.

Lemma size_set_le : forall (st : store) k d, size (set st k d) <= size st + 1.
Proof. intros. unfold size. pose proof (length_set_le st k d). lia. Qed.

Lemma size_remove_le : forall (st : store) k, size (remove st k) <= size st.
Proof. intros. unfold size. pose proof (length_remove_le st k). lia. Qed.

Definition remove_all (st : store) (ids : list N) : store := fold_left (fun m id => remove m id) ids st.

Lemma number_dels_seqs : forall ids b, seqs_from b (number_dels b ids).
Proof. induction ids as [|i r IH]; intros b; cbn; [exact I|]. split; [reflexivity|apply IH]. Qed.

Lemma number_dels_dims : forall c ids b,
  Forall (fun e => e_op e = Ins -> len (e_vec e) = c_dim c) (number_dels b ids).
Proof.
  intros c. induction ids as [|i r IH]; intros b; cbn; constructor; [intros E; discriminate|apply IH].
Qed.

Lemma number_dels_length : forall ids b, length (number_dels b ids) = length ids.
Proof. induction ids as [|i r IH]; intros b; cbn; [reflexivity|]. rewrite IH. reflexivity. Qed.

Lemma fold_number_dels : forall ids b st, fold_left apply_entry (number_dels b ids) st = remove_all st ids.
Proof. induction ids as [|i r IH]; intros b st; cbn; [reflexivity|]. apply IH. Qed.

Lemma apply_batch_fst : forall ids st n, fst (apply_batch st ids n) = remove_all st ids.
Proof.
  induction ids as [|i r IH]; intros st n; cbn [apply_batch remove_all fold_left]; [reflexivity|].
  unfold mem. destruct (get st i) eqn:G.
  - apply IH.
  - rewrite (remove_absent st i G). apply IH.
Qed.

Lemma remove_all_ok : forall c ids st, sorted st -> docs_ok c st ->
  sorted (remove_all st ids) /\ docs_ok c (remove_all st ids) /\ size (remove_all st ids) <= size st.
Proof.
  intros c. induction ids as [|i r IH]; intros st A B; cbn [remove_all fold_left]; [repeat split; try assumption; lia|].
  destruct (IH (remove st i) (sorted_remove st i A) (docs_ok_remove c st i B)) as (X & Y & Z).
  pose proof (size_remove_le st i). repeat split; try assumption. unfold remove_all in *. lia.
Qed.

(* What an operation appends to the log once its pre-checks have passed. *)
Definition op_entries (c : cfg) (s : state) (o : op) : list entry :=
  match o with
  | OInsert id v m =>
      match normalize_if_needed c v with
      | Some w => [mkEntry Ins id w (meta_canon m) (st_next_seq s)]
      | None => []
      end
  | ODelete id => [mkEntry Del id [] [] (st_next_seq s)]
  | OBatchDelete ids => number_dels (st_next_seq s) (filter (mem (st_store s)) ids)
  | OUpdate id m mg =>
      match get (st_store s) id with
      | Some d => [mkEntry Upd id [] (if mg then meta_merge (d_meta d) m else meta_canon m) (st_next_seq s)]
      | None => []
      end
  | OSnapshot | ORestart => []
  end.

Lemma op_entries_length : forall c s o, (length (op_entries c s o) <= 1)%nat \/
  exists ids, o = OBatchDelete ids /\ length (op_entries c s o) = length (filter (mem (st_store s)) ids).
Proof.
  intros c s o. destruct o as [id v m|id|ids|id m mg| |]; cbn [op_entries];
    try (left; cbn; lia); [destruct (normalize_if_needed c v)| |destruct (get (st_store s) id)];
    try (left; cbn; lia).
  right. exists ids. split; [reflexivity|apply number_dels_length].
Qed.

(* The shape shared by insert, delete, batch_delete and update_metadata after their pre-checks: the entries
   are appended to the active segment and fsynced (s1); the log may rotate, and the collection is changed in
   memory as a replay of the entries would change it (s3); a snapshot may follow. *)
Definition Logs (c : cfg) (s : state) (o : op) (s' : state) (effs : list eff) : Prop :=
  let es := op_entries c s o in
  let X' := fold_left apply_entry es (st_store s) in
  let e1 := append_effs (st_active s) es ++ fsync_effs c (st_active s) in
  exists s1 s3,
    InvDs c (st_store s) s /\ seqs_from (st_next_seq s) es /\ Forall (fun e => e_op e = Ins -> len (e_vec e) = c_dim c) es /\
    InvDs c X' s1 /\ st_disk s1 = apply_effs (st_disk s) e1 /\
    InvDs c X' s3 /\ InvM c s3 /\ st_store s3 = X' /\
    st_disk s3 = apply_effs (st_disk s1) (snd (rotate_if_needed c s1)) /\
    s' = fst (maybe_snapshot c s3) /\ effs = e1 ++ snd (rotate_if_needed c s1) ++ snd (maybe_snapshot c s3).

(* s0 is s, possibly with its tombstones compacted *)
Lemma Logs_intro : forall c s o s0 s1 e1 s2 e2 s3,
  Inv c s0 -> st_disk s0 = st_disk s -> st_store s0 = st_store s -> st_next_seq s0 = st_next_seq s ->
  st_active s0 = st_active s ->
  seqs_from (st_next_seq s) (op_entries c s o) -> Forall (fun e => e_op e = Ins -> len (e_vec e) = c_dim c) (op_entries c s o) ->
  append_entries c s0 (op_entries c s o) = (s1, e1) -> rotate_if_needed c s1 = (s2, e2) ->
  st_disk s3 = st_disk s2 -> st_active s3 = st_active s2 -> st_next_seq s3 = st_next_seq s2 ->
  (st_store s2 = st_store s -> st_slots s2 = st_slots s0 ->
     st_store s3 = fold_left apply_entry (op_entries c s o) (st_store s) /\ InvM c s3) ->
  Logs c s o (fst (maybe_snapshot c s3)) (e1 ++ e2 ++ snd (maybe_snapshot c s3)).
Proof.
  intros c s o s0 s1 e1 s2 e2 s3 [H0 _] D0 E0 N0 A0 Hsq Hdm E1 E2 D3 A3 N3 HM.
  destruct (append_mem _ _ _ _ _ E1) as [A2 A3']. pose proof (rotate_mem c s1) as R. rewrite E2 in R. cbn [fst] in R. destruct R as [R2 R3].
  destruct HM as [S3 M3]; [congruence|congruence|].
  assert (H : InvDs c (st_store s) s) by (unfold InvDs in *; rewrite <- D0, <- E0, <- A0, <- N0; exact H0).
  rewrite E0 in H0. pose proof Hsq as Hsq0. rewrite <- N0 in Hsq0.
  pose proof (append_inv c _ s0 _ H0 Hsq0 Hdm) as I1. rewrite E1 in I1. cbn [fst] in I1.
  pose proof (rotate_inv c _ s1 I1) as I3. rewrite E2 in I3. unfold InvDs in I3. cbn [fst] in I3. rewrite <- D3, <- A3, <- N3 in I3.
  assert (Ee : e1 = append_effs (st_active s) (op_entries c s o) ++ fsync_effs c (st_active s) /\
               st_disk s1 = apply_effs (st_disk s) e1).
  { rewrite <- A0, <- D0. unfold append_entries in E1. injection E1 as <- <-. split; reflexivity. }
  destruct Ee as [Ee D1]. pose proof (rotate_disk _ _ _ _ E2) as D2. rewrite <- D3 in D2. unfold InvDs.
  exists s1, s3. rewrite E2, <- Ee. cbn [snd]. repeat (split; [first [assumption|reflexivity]|]). reflexivity.
Qed.

Theorem step_shape : forall c s o s' out effs,
  wf_cfg c = true -> norm_ok_acc c -> Inv c s -> step c s o = (s', out, effs) ->
  (effs = [] /\ st_disk s' = st_disk s /\ st_store s' = st_store s /\ Inv c s')
  \/ Logs c s o s' effs
  \/ (o = OSnapshot /\ create_snapshot c s = (s', out, effs))
  \/ (o = ORestart /\ recover_full c Strict (st_disk s) = Ok (s', effs)).
Proof.
  intros c s o s' out effs Hwf Hn HI Hst. pose proof HI as [H (Mso & Mdo & Msz & Mcap)].
  assert (Hnop : forall s0 o', Inv c s0 -> st_disk s0 = st_disk s -> st_store s0 = st_store s ->
                   (s0, o', @nil eff) = (s', out, effs) ->
                   effs = [] /\ st_disk s' = st_disk s /\ st_store s' = st_store s /\ Inv c s')
    by (intros s0 o' I0 D0 E0 E; inversion E; subst; auto).
  assert (Hfin : forall s3 e1 e2 o',
            (let '(s4, e4) := maybe_snapshot c s3 in (s4, o', e1 ++ e2 ++ e4)) = (s', out, effs) ->
            s' = fst (maybe_snapshot c s3) /\ effs = e1 ++ e2 ++ snd (maybe_snapshot c s3))
    by (intros s3 e1 e2 o' E; destruct (maybe_snapshot c s3); inversion E; auto).
  destruct o as [id v m|id|ids|id m mg| |]; cbn [step] in Hst.
  - unfold do_insert in Hst.
    destruct (N.eqb_spec (len v) (c_dim c)) as [Hlen|Hlen]; cbn [negb] in Hst;
      [|left; exact (Hnop s _ HI eq_refl eq_refl Hst)].
    destruct (normalize_if_needed c v) as [w|] eqn:Hw; [|left; exact (Hnop s _ HI eq_refl eq_refl Hst)].
    destruct (c_accepts c w) eqn:Hacc; cbn [negb] in Hst; [|left; exact (Hnop s _ HI eq_refl eq_refl Hst)].
    destruct (normalize_doc_ok c v w (meta_canon m) Hn Hlen Hw Hacc) as [Hdoc Hlw].
    match type of Hst with context [if c_capacity c <=? st_slots ?x then _ else _] => set (s0 := x) in Hst end.
    assert (H0 : Inv c s0 /\ st_store s0 = st_store s /\ st_disk s0 = st_disk s /\ st_next_seq s0 = st_next_seq s /\
                 st_active s0 = st_active s).
    { unfold s0. destruct ((c_capacity c <=? st_slots s) && (size (st_store s) <? st_slots s)); [|auto].
      split; [|auto]. split; [exact H|]. unfold InvM. cbn [with_slots st_store st_slots].
      repeat split; try assumption; lia. }
    clearbody s0. destruct H0 as (HI0 & E0 & D0 & N0 & A0).
    destruct (N.leb_spec (c_capacity c) (st_slots s0)) as [Hfull|Hfull];
      [left; exact (Hnop s0 _ HI0 D0 E0 Hst)|].
    rewrite (InvDs_has_manifest _ _ _ (proj1 HI0)) in Hst. cbn [negb] in Hst. rewrite N0 in Hst.
    destruct (append_entries c s0 _) as [s1 e1] eqn:E1.
    destruct (rotate_if_needed c s1) as [s2 e2] eqn:E2.
    cbn [negb] in Hst. right. left. apply Hfin in Hst. destruct Hst as [-> ->].
    apply (Logs_intro c s (OInsert id v m) s0 s1 e1 s2 e2); cbn [op_entries]; rewrite ?Hw;
      try assumption; try reflexivity.
    + cbn. auto.
    + constructor; [intros _; exact Hlw|constructor].
    + intros R2 R3. cbn [st_store fold_left apply_entry e_op e_id e_vec e_meta]. rewrite R2.
      split; [reflexivity|]. destruct HI0 as [_ (A & B & C & D)]. rewrite E0 in A, B, C.
      unfold InvM. cbn [st_store st_slots]. rewrite R3.
      split; [apply sorted_set; exact A|]. split; [apply docs_ok_set; assumption|].
      pose proof (size_set_le (st_store s) id (mkDoc w (meta_canon m))). split; lia.
  - unfold do_delete in Hst.
    destruct (get (st_store s) id) as [d|] eqn:Hg; [|left; exact (Hnop s _ HI eq_refl eq_refl Hst)].
    rewrite (InvDs_has_manifest _ _ _ H) in Hst. cbn [negb] in Hst.
    destruct (append_entries c s _) as [s1 e1] eqn:E1.
    destruct (rotate_if_needed c s1) as [s2 e2] eqn:E2.
    right. left. apply Hfin in Hst. destruct Hst as [-> ->].
    apply (Logs_intro c s (ODelete id) s s1 e1 s2 e2); cbn [op_entries]; try assumption; try reflexivity.
    + cbn. auto.
    + constructor; [intros E; discriminate|constructor].
    + intros R2 R3. cbn [with_since with_store st_store fold_left apply_entry e_op e_id]. rewrite R2.
      split; [reflexivity|]. unfold InvM. cbn [with_since with_store st_store st_slots]. rewrite R3.
      split; [apply sorted_remove; exact Mso|]. split; [apply docs_ok_remove; exact Mdo|].
      pose proof (size_remove_le (st_store s) id). split; lia.
  - unfold do_batch_delete in Hst.
    destruct (filter (mem (st_store s)) ids) as [|l0 lr] eqn:El; [left; exact (Hnop s _ HI eq_refl eq_refl Hst)|].
    rewrite <- El in Hst. clear El l0 lr. set (live := filter (mem (st_store s)) ids) in *.
    rewrite (InvDs_has_manifest _ _ _ H) in Hst. cbn [negb] in Hst.
    destruct (append_entries c s _) as [s1 e1] eqn:E1.
    destruct (rotate_if_needed c s1) as [s2 e2] eqn:E2.
    pose proof (apply_batch_fst live (st_store s2) 0) as Eb.
    destruct (apply_batch (st_store s2) live 0) as [m' cnt]. cbn [fst] in Eb. subst m'.
    right. left. apply Hfin in Hst. destruct Hst as [-> ->].
    apply (Logs_intro c s (OBatchDelete ids) s s1 e1 s2 e2); cbn [op_entries]; fold live;
      try assumption; try reflexivity.
    + apply number_dels_seqs.
    + apply number_dels_dims.
    + intros R2 R3. cbn [with_since with_store st_store]. rewrite R2, fold_number_dels.
      split; [reflexivity|]. destruct (remove_all_ok c live (st_store s) Mso Mdo) as (X & Y & Z).
      unfold InvM. cbn [with_since with_store st_store st_slots]. rewrite R3. repeat split; try assumption; lia.
  - unfold do_update in Hst.
    destruct (get (st_store s) id) as [d|] eqn:Hg; [|left; exact (Hnop s _ HI eq_refl eq_refl Hst)].
    rewrite (InvDs_has_manifest _ _ _ H) in Hst. cbn [negb] in Hst.
    destruct (append_entries c s _) as [s1 e1] eqn:E1.
    destruct (rotate_if_needed c s1) as [s2 e2] eqn:E2.
    right. left. apply Hfin in Hst. destruct Hst as [-> ->].
    apply (Logs_intro c s (OUpdate id m mg) s s1 e1 s2 e2); cbn [op_entries]; rewrite ?Hg;
      try assumption; try reflexivity.
    + cbn. auto.
    + constructor; [intros E; discriminate|constructor].
    + intros R2 R3. cbn [with_since with_store st_store fold_left apply_entry e_op e_id e_meta].
      unfold upd_meta. rewrite R2, Hg. split; [reflexivity|].
      set (d' := mkDoc (d_vec d) (if mg then meta_merge (d_meta d) m else meta_canon m)).
      pose proof (length_set_present (st_store s) id d' d Mso Hg) as L.
      unfold InvM. cbn [with_since with_store st_store st_slots]. rewrite R3.
      split; [apply sorted_set; exact Mso|]. split; [apply docs_ok_set; [exact Mdo|exact (docs_ok_get c _ _ _ Mdo Hg)]|].
      unfold size in *. rewrite L. split; assumption.
  - right. right. left. auto.
  - right. right. right. split; [reflexivity|].
    destruct (recover_full c Strict (st_disk s)) as [[r ef]|] eqn:E; [inversion Hst; subst; reflexivity|].
    destruct (recover_inv c s Hwf HI) as (r & ef & E' & _). congruence.
Qed.

Lemma Logs_inv : forall c s o s' effs, Logs c s o s' effs ->
  Inv c s' /\ st_store s' = fold_left apply_entry (op_entries c s o) (st_store s).
Proof.
  intros c s o s' effs (s1 & s3 & _ & _ & _ & _ & _ & H3 & M3 & S3 & _ & -> & _).
  rewrite <- S3 in H3 |- *. split; [exact (finish_with_snapshot c s3 (conj H3 M3))|apply maybe_snapshot_mem].
Qed.

Theorem step_inv : forall c s o s' out effs, wf_cfg c = true -> norm_ok_acc c -> Inv c s ->
  step c s o = (s', out, effs) -> Inv c s'.
Proof.
  intros c s o s' out effs Hwf Hn HI Hst.
  destruct (step_shape c s o s' out effs Hwf Hn HI Hst) as [(_ & _ & _ & HI')|[L|[(_ & E)|(_ & E)]]].
  - exact HI'.
  - apply (Logs_inv _ _ _ _ _ L).
  - pose proof (manual_snapshot_inv c s HI) as X. rewrite E in X. exact X.
  - destruct (recover_inv c s Hwf HI) as (r & ef & E' & _ & _ & HI' & _). rewrite E in E'.
    inversion E'; subst. exact HI'.
Qed.

Lemma init_inv : forall c, wf_cfg c = true -> Inv c (init c).
Proof.
  intros c Hwf. destruct (wf_dim c Hwf) as [_ Hcap]. split.
  - unfold InvDs, init. cbn [st_store st_disk st_active st_next_seq].
    apply (InvD_intro c empty _ _ _ (mkManifest None None [NWal (fresh_id [])]) [] 0);
      cbn [m_segments m_snapshot m_snapshot_seq].
    + reflexivity.
    + exists []. reflexivity.
    + constructor; [intros []|constructor].
    + constructor; [eexists; reflexivity|constructor].
    + intros nm [<-|[]]. exists []. reflexivity.
    + split; [reflexivity|]. cbn. auto.
    + constructor.
    + reflexivity.
    + reflexivity.
  - unfold InvM, init, empty. cbn [st_store st_slots]. split; [exact I|]. split; [constructor|].
    split; [unfold size; cbn [length]; lia|lia].
Qed.

Theorem run_from_inv : forall c ops s, wf_cfg c = true -> norm_ok_acc c -> Inv c s ->
  Inv c (fold_left (step_state c) ops s).
Proof.
  intros c ops s Hwf Hn. revert s. induction ops as [|o r IH]; intros s HI; [exact HI|].
  cbn [fold_left]. apply IH. unfold step_state. destruct (step c s o) as [[s' out] effs] eqn:Hst.
  exact (step_inv c s o s' out effs Hwf Hn HI Hst).
Qed.

Theorem run_inv : forall c ops, wf_cfg c = true -> norm_ok_acc c -> Inv c (run c ops).
Proof. intros c ops Hwf Hn. apply run_from_inv; [exact Hwf|exact Hn|apply init_inv; exact Hwf]. Qed.

(* Restart in an invariant state, however it was reached: the collection and the next sequence number come
   back, and the latter exceeds every sequence number in the directory. *)
Theorem restart_lossless : forall c s, wf_cfg c = true -> Inv c s ->
  exists s', recover c Strict (st_disk s) = Ok s' /\ st_store s' = st_store s /\ st_next_seq s' = st_next_seq s /\
    exists m, load_manifest (st_disk s) = Some m /\
      Forall (fun e => e_seq e < st_next_seq s') (all_entries (st_disk s) (m_segments m)) /\
      opt_or0 (m_snapshot_seq m) < st_next_seq s'.
Proof.
  intros c s Hwf HI.
  destruct (recover_inv c s Hwf HI) as (s' & effs & E & Es & En & _).
  exists s'. unfold recover. rewrite E. split; [reflexivity|]. split; [exact Es|]. split; [exact En|].
  destruct HI as [(m & sdocs & sseq & Hm & _ & _ & _ & _ & [Hq _] & Hok & Hmx & _) _].
  exists m. unfold load_manifest. rewrite Hm. split; [reflexivity|]. rewrite En. split.
  - eapply Forall_impl; [|exact Hok]. intros e (_ & B & _). exact B.
  - rewrite Hq. pose proof (maxseq_ge (all_entries (st_disk s) (m_segments m)) sseq). lia.
Qed.

Theorem restart_chain : forall c n s, wf_cfg c = true -> Inv c s ->
  Inv c (fold_left (step_state c) (repeat ORestart n) s) /\
  st_store (fold_left (step_state c) (repeat ORestart n) s) = st_store s.
Proof.
  intros c n s Hwf. revert s. induction n as [|k IH]; intros s HI; [split; [exact HI|reflexivity]|].
  cbn [repeat fold_left]. unfold step_state at 2 4. cbn [step].
  destruct (recover_inv c s Hwf HI) as (s' & effs & E & Es & _ & HI' & _). rewrite E. cbn [fst].
  destruct (IH s' HI') as [I S]. split; [exact I|]. rewrite S. exact Es.
Qed.

Lemma delete_then_absent : forall c s id, sorted (st_store s) ->
  snd (fst (do_delete c s id)) = OBool true -> get (st_store (fst (fst (do_delete c s id)))) id = None.
Proof.
  intros c s id A. unfold do_delete.
  destruct (get (st_store s) id); [|cbn; discriminate]. destruct (negb (has_manifest (st_disk s))); [cbn; discriminate|].
  destruct (append_entries c s _) as [s1 e1] eqn:E1. destruct (rotate_mem c s1) as [R _].
  destruct (rotate_if_needed c s1) as [s2 e2].
  match goal with |- context [maybe_snapshot c ?x] => destruct (maybe_snapshot_mem c x) as [Q _] end.
  destruct (maybe_snapshot c _) as [s4 e4]. cbn [fst snd with_since with_store st_store] in *. intros _.
  rewrite Q, R, (proj1 (append_mem _ _ _ _ _ E1)). apply get_remove_same. exact A.
Qed.

Lemma recover_full_disk : forall c md d s effs, recover_full c md d = Ok (s, effs) ->
  st_disk s = apply_effs d effs.
Proof.
  intros c md d s effs H. unfold recover_full in H.
  destruct (recover_read c md d) as [[[docs mx] m]|]; [|discriminate].
  destruct (rebuild_docs c docs) as [docs'|]; [|discriminate].
  destruct (c_capacity c <? size docs'); [discriminate|].
  destruct (negb _); [discriminate|]. inversion H; subst. reflexivity.
Qed.

Lemma log_disk : forall c s es (s3 : state -> state) s' (out o' : outcome) effs,
  (let '(s1, e1) := append_entries c s es in
   let '(s2, e2) := rotate_if_needed c s1 in
   let '(s4, e4) := maybe_snapshot c (s3 s2) in (s4, o', e1 ++ e2 ++ e4)) = (s', out, effs) ->
  (forall s2, st_disk (s3 s2) = st_disk s2) ->
  st_disk s' = apply_effs (st_disk s) effs.
Proof.
  intros c s es s3 s' out o' effs H D.
  destruct (append_entries c s es) as [s1 e1] eqn:E1. destruct (rotate_if_needed c s1) as [s2 e2] eqn:E2.
  destruct (maybe_snapshot c (s3 s2)) as [s4 e4] eqn:E4. inversion H; subst.
  rewrite (maybe_snapshot_disk _ _ _ _ E4), D, (rotate_disk _ _ _ _ E2), (append_disk _ _ _ _ _ E1), !apply_effs_app.
  reflexivity.
Qed.

Theorem step_disk : forall c s o s' out effs, step c s o = (s', out, effs) ->
  st_disk s' = apply_effs (st_disk s) effs.
Proof.
  intros c s o s' out effs H. destruct o as [id v m|id|ids|id m mg| |]; cbn [step] in H.
  - unfold do_insert in H.
    destruct (negb (len v =? c_dim c)); [inversion H; subst; reflexivity|].
    destruct (normalize_if_needed c v) as [w|]; [|inversion H; subst; reflexivity].
    destruct (negb (c_accepts c w)) eqn:Hpre; [inversion H; subst; reflexivity|].
    match type of H with context [if c_capacity c <=? st_slots ?x then _ else _] => set (s0 := x) in H end.
    assert (E0 : st_disk s0 = st_disk s) by (unfold s0; destruct (_ && _); reflexivity).
    clearbody s0. rewrite <- E0.
    destruct (c_capacity c <=? st_slots s0); [inversion H; subst; reflexivity|].
    destruct (negb (has_manifest (st_disk s0))); [inversion H; subst; reflexivity|].
    eapply (log_disk c s0 _ (fun s2 => mkState _ _ _ _ _ _ (st_disk s2))); [exact H|reflexivity].
  - unfold do_delete in H.
    destruct (get (st_store s) id); [|inversion H; subst; reflexivity].
    destruct (negb (has_manifest (st_disk s))); [inversion H; subst; reflexivity|].
    eapply (log_disk c s _ (fun s2 => with_since (with_store s2 _) _)); [exact H|reflexivity].
  - unfold do_batch_delete in H.
    destruct (filter (mem (st_store s)) ids) as [|l0 lr]; [inversion H; subst; reflexivity|].
    destruct (negb (has_manifest (st_disk s))); [inversion H; subst; reflexivity|].
    destruct (append_entries c s _) as [s1 e1] eqn:E1. destruct (rotate_if_needed c s1) as [s2 e2] eqn:E2.
    destruct (apply_batch _ _ _) as [m' cnt]. destruct (maybe_snapshot c _) as [s4 e4] eqn:E4. inversion H; subst.
    rewrite (maybe_snapshot_disk _ _ _ _ E4), !apply_effs_app, <- (append_disk _ _ _ _ _ E1), <- (rotate_disk _ _ _ _ E2).
    reflexivity.
  - unfold do_update in H.
    destruct (get (st_store s) id); [|inversion H; subst; reflexivity].
    destruct (negb (has_manifest (st_disk s))); [inversion H; subst; reflexivity|].
    eapply (log_disk c s _ (fun s2 => with_since (with_store s2 _) _)); [exact H|reflexivity].
  - apply (create_snapshot_disk _ _ _ _ _ H).
  - destruct (recover_full c Strict (st_disk s)) as [[s1 e1]|] eqn:E.
    + inversion H; subst. apply (recover_full_disk _ _ _ _ _ E).
    + inversion H; subst. reflexivity.
Qed.
