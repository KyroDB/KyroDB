(* Lemmas about Model/Amap.v: get/set/remove algebra, the sortedness invariant, canonicity
   (extensional equality implies Leibniz equality), of_list on a sorted list. *)
From Coq Require Import List NArith Bool Lia.
From Kyro Require Import Model.Amap.
Import ListNotations.
Open Scope N_scope.

Section AmapProofs.
  Context {V : Type}.
  Implicit Types (m : amap V) (k : N) (v : V).

  Definition lt_all k m : Prop := Forall (fun kv : N * V => k < fst kv) m.

  Fixpoint sorted m : Prop :=
    match m with
    | [] => True
    | (k, _) :: r => lt_all k r /\ sorted r
    end.

  Lemma lt_all_weaken : forall k k' m, k' <= k -> lt_all k m -> lt_all k' m.
  Proof.
    intros k k' m Hle H. unfold lt_all in *. eapply Forall_impl; [|exact H].
    intros a Ha. cbn in Ha. lia.
  Qed.

  Lemma get_lt_all : forall m k x, lt_all k m -> x <= k -> get m x = None.
  Proof.
    induction m as [|[k0 v0] r IH]; intros k x H Hle; cbn; [reflexivity|].
    inversion H as [|a l Ha Hr]; subst. cbn in Ha.
    destruct (N.eqb_spec k0 x) as [E|E]; [lia|]. eapply IH; eauto.
  Qed.

  Lemma get_set_same : forall m k v, get (set m k v) k = Some v.
  Proof.
    induction m as [|[k0 v0] r IH]; intros k v; cbn.
    - rewrite N.eqb_refl. reflexivity.
    - destruct (N.eqb_spec k0 k) as [E|E]; cbn.
      + rewrite N.eqb_refl. reflexivity.
      + destruct (N.ltb_spec k k0); cbn.
        * rewrite N.eqb_refl. reflexivity.
        * destruct (N.eqb_spec k0 k); [contradiction|]. apply IH.
  Qed.

  Lemma get_set_other : forall m k v k', k' <> k -> get (set m k v) k' = get m k'.
  Proof.
    induction m as [|[k0 v0] r IH]; intros k v k' Hne; cbn.
    - destruct (N.eqb_spec k k'); [congruence|reflexivity].
    - destruct (N.eqb_spec k0 k) as [E|E]; cbn.
      + subst k0. destruct (N.eqb_spec k k'); [congruence|reflexivity].
      + destruct (N.ltb_spec k k0); cbn.
        * destruct (N.eqb_spec k k'); [congruence|reflexivity].
        * destruct (N.eqb_spec k0 k'); [reflexivity|]. apply IH; assumption.
  Qed.

  Lemma get_remove_other : forall m k k', k' <> k -> get (remove m k) k' = get m k'.
  Proof.
    induction m as [|[k0 v0] r IH]; intros k k' Hne; cbn; [reflexivity|].
    destruct (N.eqb_spec k0 k) as [E|E]; cbn.
    - subst k0. destruct (N.eqb_spec k k'); [congruence|reflexivity].
    - destruct (N.eqb_spec k0 k'); [reflexivity|]. apply IH; assumption.
  Qed.

  Lemma get_remove_same : forall m k, sorted m -> get (remove m k) k = None.
  Proof.
    induction m as [|[k0 v0] r IH]; intros k Hs; cbn; [reflexivity|].
    destruct Hs as [Hlt Hs].
    destruct (N.eqb_spec k0 k) as [E|E]; cbn.
    - subst k0. eapply get_lt_all; [exact Hlt|lia].
    - destruct (N.eqb_spec k0 k); [contradiction|]. apply IH; assumption.
  Qed.

  Lemma remove_absent : forall m k, get m k = None -> remove m k = m.
  Proof.
    induction m as [|[k0 v0] r IH]; intros k H; cbn in *; [reflexivity|].
    destruct (N.eqb_spec k0 k); [discriminate|]. f_equal. apply IH; assumption.
  Qed.

  Lemma Forall_set : forall (P : N * V -> Prop) m k v, Forall P m -> P (k, v) -> Forall P (set m k v).
  Proof.
    intros P m k v H Hkv. induction H as [|[k0 v0] r H0 Hr IH]; cbn [set]; [constructor; [exact Hkv|constructor]|].
    destruct (N.eqb k0 k); [constructor; assumption|].
    destruct (N.ltb k k0); constructor; try assumption. constructor; assumption.
  Qed.

  Lemma Forall_remove : forall (P : N * V -> Prop) m k, Forall P m -> Forall P (remove m k).
  Proof.
    intros P m k H. induction H as [|[k0 v0] r H0 Hr IH]; cbn [remove]; [constructor|].
    destruct (N.eqb k0 k); [exact Hr|constructor; assumption].
  Qed.

  Lemma lt_all_set : forall m k0 k v, lt_all k0 m -> k0 < k -> lt_all k0 (set m k v).
  Proof. intros m k0 k v H Hlt. apply Forall_set; assumption. Qed.

  Lemma lt_all_remove : forall m k0 k, lt_all k0 m -> lt_all k0 (remove m k).
  Proof. intros m k0 k H. apply Forall_remove. exact H. Qed.

  Lemma sorted_set : forall m k v, sorted m -> sorted (set m k v).
  Proof.
    induction m as [|[k0 v0] r IH]; intros k v Hs; cbn.
    - split; [constructor|exact I].
    - destruct Hs as [Hlt Hs].
      destruct (N.eqb_spec k0 k) as [E|E].
      + subst k0. cbn. split; assumption.
      + destruct (N.ltb_spec k k0).
        * cbn. split; [|split; assumption].
          constructor; [cbn; assumption|]. eapply lt_all_weaken; [|exact Hlt]. lia.
        * cbn. split; [|apply IH; assumption]. apply lt_all_set; [assumption|lia].
  Qed.

  Lemma sorted_remove : forall m k, sorted m -> sorted (remove m k).
  Proof.
    induction m as [|[k0 v0] r IH]; intros k Hs; cbn; [exact I|].
    destruct Hs as [Hlt Hs].
    destruct (N.eqb_spec k0 k); [assumption|].
    cbn. split; [apply lt_all_remove; assumption|apply IH; assumption].
  Qed.

  Lemma ext_eq : forall a b : amap V, sorted a -> sorted b -> (forall k, get a k = get b k) -> a = b.
  Proof.
    induction a as [|[k v] a' IH]; intros b Ha Hb H.
    - destruct b as [|[k' v'] b']; [reflexivity|].
      specialize (H k'). cbn in H. rewrite N.eqb_refl in H. discriminate.
    - destruct b as [|[k' v'] b'].
      + specialize (H k). cbn in H. rewrite N.eqb_refl in H. discriminate.
      + destruct Ha as [Hla Ha]. destruct Hb as [Hlb Hb].
        assert (k = k') as ->.
        { destruct (N.lt_trichotomy k k') as [L|[E|L]]; [|assumption|].
          - pose proof (H k) as Hk. cbn in Hk. rewrite N.eqb_refl in Hk.
            destruct (N.eqb_spec k' k); [lia|].
            rewrite (get_lt_all b' k' k Hlb) in Hk by lia. discriminate.
          - pose proof (H k') as Hk. cbn in Hk. rewrite N.eqb_refl in Hk.
            destruct (N.eqb_spec k k'); [lia|].
            rewrite (get_lt_all a' k k' Hla) in Hk by lia. discriminate. }
        pose proof (H k') as Hk. cbn in Hk. rewrite N.eqb_refl in Hk. inversion Hk; subst v'.
        f_equal. apply IH; [assumption|assumption|].
        intros x. destruct (N.eq_dec x k') as [->|Hne].
        * rewrite (get_lt_all a' k' k' Hla), (get_lt_all b' k' k' Hlb) by lia. reflexivity.
        * specialize (H x). cbn in H. destruct (N.eqb_spec k' x); [congruence|]. assumption.
  Qed.

  Lemma set_append : forall acc k v,
    Forall (fun kv : N * V => fst kv < k) acc -> set acc k v = acc ++ [(k, v)].
  Proof.
    induction acc as [|[k0 v0] r IH]; intros k v H; cbn; [reflexivity|].
    inversion H as [|a l Ha Hr]; subst. cbn in Ha.
    destruct (N.eqb_spec k0 k); [lia|]. destruct (N.ltb_spec k k0); [lia|].
    f_equal. apply IH; assumption.
  Qed.

  Lemma sorted_app_lt : forall acc k v r,
    sorted (acc ++ (k, v) :: r) -> Forall (fun kv : N * V => fst kv < k) acc.
  Proof.
    induction acc as [|[k0 v0] a IH]; intros k v r H; [constructor|].
    cbn in H. destruct H as [Hlt Hs]. constructor.
    - cbn. unfold lt_all in Hlt. rewrite Forall_forall in Hlt.
      specialize (Hlt (k, v)). cbn in Hlt. apply Hlt. apply in_or_app. right. left. reflexivity.
    - eapply IH; exact Hs.
  Qed.

  Lemma fold_set_sorted : forall l acc,
    sorted (acc ++ l) ->
    fold_left (fun m (kv : N * V) => set m (fst kv) (snd kv)) l acc = acc ++ l.
  Proof.
    induction l as [|[k v] r IH]; intros acc H; cbn.
    - rewrite app_nil_r. reflexivity.
    - rewrite (set_append acc k v) by (eapply sorted_app_lt; exact H).
      rewrite IH; rewrite <- app_assoc; cbn; [reflexivity|assumption].
  Qed.

  Lemma of_list_sorted : forall l : amap V, sorted l -> of_list l = l.
  Proof. intros l H. unfold of_list, empty. rewrite fold_set_sorted; [reflexivity|exact H]. Qed.

  Lemma length_set_le : forall m k v, (length (set m k v) <= S (length m))%nat.
  Proof.
    induction m as [|[k0 v0] r IH]; intros k v; cbn; [lia|].
    destruct (N.eqb k0 k); cbn; [lia|]. destruct (N.ltb k k0); cbn; [lia|].
    specialize (IH k v). lia.
  Qed.

  Lemma length_remove_le : forall m k, (length (remove m k) <= length m)%nat.
  Proof.
    induction m as [|[k0 v0] r IH]; intros k; cbn; [lia|].
    destruct (N.eqb k0 k); cbn; [lia|]. specialize (IH k). lia.
  Qed.

  Lemma length_set_present : forall m k v v0, sorted m -> get m k = Some v0 ->
    length (set m k v) = length m.
  Proof.
    induction m as [|[k0 w0] r IH]; intros k v v0 Hs Hg; cbn in Hg; [discriminate|].
    destruct Hs as [Hlt Hs]. cbn [set].
    destruct (N.eqb_spec k0 k) as [E|E]; [reflexivity|].
    destruct (N.ltb_spec k k0) as [L|L].
    - rewrite (get_lt_all r k0 k Hlt) in Hg by lia. discriminate.
    - cbn [length]. f_equal. eapply IH; eassumption.
  Qed.

  Lemma lt_all_not_in : forall m k, lt_all k m -> existsb (N.eqb k) (map fst m) = false.
  Proof.
    induction m as [|[k0 v0] r IH]; intros k H; cbn; [reflexivity|].
    inversion H as [|a l Ha Hr]; subst. cbn in Ha.
    destruct (N.eqb_spec k k0); [lia|]. cbn. apply IH; assumption.
  Qed.

  Lemma in_get : forall m k v, sorted m -> In (k, v) m -> get m k = Some v.
  Proof.
    induction m as [|[k0 v0] r IH]; intros k v Hs Hin; [contradiction|].
    destruct Hs as [Hlt Hs]. cbn. destruct Hin as [E|Hin].
    - inversion E; subst. rewrite N.eqb_refl. reflexivity.
    - destruct (N.eqb_spec k0 k) as [E|E].
      + subst k0. unfold lt_all in Hlt. rewrite Forall_forall in Hlt.
        specialize (Hlt _ Hin). cbn in Hlt. lia.
      + apply IH; assumption.
  Qed.

  Lemma get_in : forall m k v, get m k = Some v -> In (k, v) m.
  Proof.
    induction m as [|[k0 v0] r IH]; intros k v H; cbn in H; [discriminate|].
    destruct (N.eqb_spec k0 k).
    - inversion H; subst. left. reflexivity.
    - right. apply IH; assumption.
  Qed.
End AmapProofs.
