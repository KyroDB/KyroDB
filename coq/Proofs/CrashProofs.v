(* Proofs about Model/Crash.v (C01, process-kill model): every prefix of the effect list of every
   operation — and of start-up itself — leaves a directory from which the server's start-up succeeds
   with the collection as of the acknowledged operations, or that plus the in-flight operation. *)
From Coq Require Import List NArith ZArith Bool Lia.
From Kyro Require Import Model.Amap Model.Backend Model.Crash Proofs.ListFacts Proofs.AmapProofs Proofs.BackendProofs.
Import ListNotations.
Open Scope N_scope.

(* directory d, whose manifest is m, is read by strict recovery as the collection lst *)
Definition RecM (c : cfg) (lst : store) (d : dir) (m : manifest) : Prop :=
  exists sdocs sseq nx,
    dget d NManifest = Some (FManifest m) /\
    Forall is_wal (m_segments m) /\
    (forall nm, In nm (m_segments m) -> wal_readable d nm) /\
    snap_ok c d m sdocs sseq /\
    Forall (entry_ok c nx) (all_entries d (m_segments m)) /\
    replay_pure sseq sdocs (all_entries d (m_segments m)) = lst.

Definition Rec (c : cfg) (lst : store) (d : dir) : Prop := exists m, RecM c lst d m.

Lemma InvD_RecM : forall c lst d a nx, InvD c lst d a nx ->
  exists m, RecM c lst d m /\ dget d NManifest = Some (FManifest m).
Proof.
  intros c lst d a nx (m & sdocs & sseq & Hm & _ & _ & Hw & Hg & Hs & Hok & _ & Hrp).
  exists m. split; [|exact Hm]. exists sdocs, sseq, nx.
  split; [exact Hm|]. split; [exact Hw|]. split; [|split; [exact Hs|split; [exact Hok|exact Hrp]]].
  intros nm Hin. apply wal_good_readable. apply Hg. exact Hin.
Qed.

Lemma InvD_Rec : forall c lst d a nx, InvD c lst d a nx -> Rec c lst d.
Proof. intros c lst d a nx H. destruct (InvD_RecM _ _ _ _ _ H) as (m & R & _). exists m. exact R. Qed.

Lemma wal_readable_agree : forall d d' x, dget d' x = dget d x -> wal_readable d x -> wal_readable d' x.
Proof. intros d d' x H (es & t & He & Ht). exists es, t. rewrite H. auto. Qed.

(* only what the manifest references is read: MANIFEST itself, the listed segments, the snapshot *)
Lemma RecM_agree : forall c lst d d' m, RecM c lst d m ->
  (forall x, x = NManifest \/ In x (m_segments m) \/ m_snapshot m = Some x -> dget d' x = dget d x) ->
  RecM c lst d' m.
Proof.
  intros c lst d d' m (sdocs & sseq & nx & Hm & Hw & Hg & Hs & Hok & Hrp) A.
  exists sdocs, sseq, nx. rewrite (all_entries_agree d d' (m_segments m)) by auto.
  split; [rewrite A by auto; exact Hm|]. split; [exact Hw|]. split; [|split; [|split; [exact Hok|exact Hrp]]].
  - intros nm Hin. apply (wal_readable_agree d d'); [auto|apply Hg; exact Hin].
  - apply (snap_ok_agree c d d'); [auto|exact Hs].
Qed.

Lemma Rec_start : forall c lst d, wf_cfg c = true -> Rec c lst d -> docs_ok c lst ->
  size lst <= c_capacity c -> exists s, start c d = SOk s /\ st_store s = lst.
Proof.
  intros c lst d Hwf (m & sdocs & sseq & nx & Hm & Hw & Hg & Hs & Hok & Hrp) Hd Hsz.
  unfold start, has_manifest. rewrite Hm. unfold recover, recover_full.
  rewrite (recover_read_ok c d m sdocs sseq nx Hwf Hm Hs Hg Hok).
  rewrite Hrp, (rebuild_docs_ok c _ Hd).
  rewrite (proj2 (N.ltb_ge _ _)) by lia. rewrite (accepts_all_ok c _ Hd). cbn [negb].
  eexists. split; reflexivity.
Qed.

Lemma crash_app_lt : forall d e1 e2 k torn, (k < length e1)%nat ->
  crash_kill d (e1 ++ e2) k torn = crash_kill d e1 k torn.
Proof.
  intros d e1 e2 k torn H. unfold crash_kill.
  rewrite firstn_app. replace (k - length e1)%nat with 0%nat by lia. cbn [firstn]. rewrite app_nil_r.
  rewrite nth_error_app1 by exact H. reflexivity.
Qed.

Lemma crash_app_ge : forall d e1 e2 j torn,
  crash_kill d (e1 ++ e2) (length e1 + j) torn = crash_kill (apply_effs d e1) e2 j torn.
Proof.
  intros d e1 e2 j torn. unfold crash_kill.
  rewrite firstn_app_2, apply_effs_app. rewrite nth_error_app2 by lia.
  replace (length e1 + j - length e1)%nat with j by lia. reflexivity.
Qed.

Lemma crash_nil : forall d k torn, crash_kill d [] k torn = d.
Proof. intros d k torn. unfold crash_kill. rewrite firstn_nil. destruct torn; [destruct k|]; reflexivity. Qed.

Lemma crash_all : forall d effs k torn, (length effs <= k)%nat -> crash_kill d effs k torn = apply_effs d effs.
Proof.
  intros d effs k torn H. unfold crash_kill. rewrite firstn_all2 by exact H.
  destruct torn; [|reflexivity]. apply nth_error_None in H. rewrite H. reflexivity.
Qed.

Definition AllRec (c : cfg) (lst : store) (d : dir) (effs : list eff) : Prop :=
  forall k torn, (k <= length effs)%nat -> Rec c lst (crash_kill d effs k torn).

Lemma AllRec_app : forall c lst d e1 e2,
  AllRec c lst d e1 -> AllRec c lst (apply_effs d e1) e2 -> AllRec c lst d (e1 ++ e2).
Proof.
  intros c lst d e1 e2 A B k torn Hk. rewrite app_length in Hk.
  destruct (Nat.lt_ge_cases k (length e1)) as [L|G].
  - rewrite crash_app_lt by exact L. apply A. lia.
  - replace k with (length e1 + (k - length e1))%nat by lia. rewrite crash_app_ge. apply B. lia.
Qed.

Lemma AllRec_nil : forall c lst d, Rec c lst d -> AllRec c lst d [].
Proof. intros c lst d H k torn _. rewrite crash_nil. exact H. Qed.

Lemma AllRec_end : forall c lst d effs, AllRec c lst d effs -> Rec c lst (apply_effs d effs).
Proof. intros c lst d effs H. rewrite <- (crash_all d effs (length effs) false) by lia. apply H. lia. Qed.

(* names an effect can modify *)
Definition touches (e : eff) : list name :=
  match e with
  | ECreate f _ | EAppend f _ | ETrunc f _ | EWriteFile f _ | EUnlink f => [f]
  | ERename a b => [a; b]
  | EFsync _ | EFsyncData _ | EFsyncDir => []
  end.

Lemma apply_eff_other : forall d e x, ~ In x (touches e) -> dget (apply_eff d e) x = dget d x.
Proof.
  intros d e x H. destruct e as [f tr|f b|f n|f|f|a b|f| |f co]; cbn [touches] in H; cbn [apply_eff];
    try reflexivity; apply not_in_cons in H; destruct H as [N1 H]; try (apply not_in_cons in H; destruct H as [N2 _]).
  - destruct (dget d f); [destruct tr|]; dsimp; reflexivity.
  - destruct (dget d f) as [[| frs [| |] | | |]|]; destruct b; dsimp; reflexivity.
  - destruct (dget d f) as [[| frs t | | |]|]; dsimp; reflexivity.
  - destruct (dget d a); dsimp; reflexivity.
  - dsimp. reflexivity.
  - dsimp. reflexivity.
Qed.

Lemma torn_eff_other : forall d e x, ~ In x (touches e) -> dget (torn_eff d e) x = dget d x.
Proof.
  intros d e x H. destruct e as [f tr|f b|f n|f|f|a b|f| |f co]; cbn [touches] in H; cbn [torn_eff];
    try reflexivity; apply not_in_cons in H; destruct H as [N1 _].
  - destruct b; [reflexivity|]. destruct (dget d f) as [[| frs [| |] | | |]|]; dsimp; reflexivity.
  - destruct (dget d f); dsimp; reflexivity.
Qed.

Definition touched (E : list eff) : list name := flat_map touches E.

Lemma touched_new_wal : forall f x, In x (touched (new_wal_effs f)) -> x = f.
Proof. intros f x H. cbn in H. destruct H as [<-|[<-|[]]]; reflexivity. Qed.

Lemma touched_save_snapshot : forall k sn x, In x (touched (save_snapshot_effs k sn)) -> x = NSnapTmp k \/ x = NSnap k.
Proof. intros k sn x H. cbn in H. destruct H as [<-|[<-|[<-|[<-|[]]]]]; auto. Qed.

Lemma touched_unlinks : forall del x, In x (touched (map EUnlink del)) -> In x del.
Proof. induction del as [|y r IH]; intros x H; [exact H|]. destruct H as [<-|H]; [left; reflexivity|right; exact (IH _ H)]. Qed.

Lemma apply_effs_other : forall effs d x, ~ In x (touched effs) -> dget (apply_effs d effs) x = dget d x.
Proof.
  induction effs as [|e r IH]; intros d x H; [reflexivity|].
  change (apply_effs d (e :: r)) with (apply_effs (apply_eff d e) r).
  rewrite IH by (intro Hin; apply H; apply in_or_app; right; exact Hin).
  apply apply_eff_other. intro Hin. apply H. apply in_or_app. left. exact Hin.
Qed.

Lemma crash_other : forall effs d k torn x, ~ In x (touched effs) -> dget (crash_kill d effs k torn) x = dget d x.
Proof.
  intros effs d k torn x H. unfold crash_kill.
  assert (Hin : forall e, In e effs -> ~ In x (touches e))
    by (intros e He Hx; apply H; apply in_flat_map; exists e; auto).
  assert (A : dget (apply_effs d (firstn k effs)) x = dget d x).
  { apply apply_effs_other. intro Hx. apply in_flat_map in Hx. destruct Hx as (e & He & Hx).
    exact (Hin e (in_firstn _ _ _ He) Hx). }
  destruct torn; [|exact A]. destruct (nth_error effs k) as [e|] eqn:E; [|exact A].
  rewrite torn_eff_other; [exact A|]. apply Hin. eapply nth_error_In. exact E.
Qed.

Lemma AllRec_untouched : forall c lst d m effs, RecM c lst d m ->
  (forall x, In x (touched effs) -> ~ (x = NManifest \/ In x (m_segments m) \/ m_snapshot m = Some x)) ->
  forall k torn, RecM c lst (crash_kill d effs k torn) m.
Proof.
  intros c lst d m effs R H k torn.
  apply (RecM_agree c lst d _ m R). intros x Hr. apply crash_other. intro Hx. exact (H x Hx Hr).
Qed.

Lemma RecM_refs : forall c lst d m x, RecM c lst d m ->
  x = NManifest \/ In x (m_segments m) \/ m_snapshot m = Some x ->
  (x = NManifest \/ is_wal x \/ exists k, x = NSnap k) /\ dget d x <> None.
Proof.
  intros c lst d m x (sdocs & sseq & nx & Hm & Hw & Hg & [_ Hs] & _) [->|[H|H]].
  - split; [auto|]. rewrite Hm. discriminate.
  - split; [right; left; rewrite Forall_forall in Hw; apply Hw; exact H|].
    destruct (Hg x H) as (es & t & He & _). rewrite He. discriminate.
  - rewrite H in Hs. destruct Hs as (k & sn & E & Hf & _). split; [right; right; exists k; exact E|].
    rewrite Hf. discriminate.
Qed.

Lemma AllRec_fresh : forall c lst d effs, Rec c lst d ->
  (forall x, In x (touched effs) -> x = NManifestTmp \/ (exists k, x = NSnapTmp k) \/ dget d x = None) ->
  AllRec c lst d effs.
Proof.
  intros c lst d effs [m R] H k torn _. exists m. apply AllRec_untouched; [exact R|].
  intros x Hx Hr. destruct (RecM_refs _ _ _ _ x R Hr) as [K N].
  destruct (H x Hx) as [->|[[j ->]|Hn]]; [| |exact (N Hn)]; destruct K as [E|[[i E]|[i E]]]; discriminate.
Qed.

Lemma AllRec_new_wal : forall c lst d f, Rec c lst d -> dget d f = None -> AllRec c lst d (new_wal_effs f).
Proof.
  intros c lst d f R Hf. apply AllRec_fresh; [exact R|]. intros x Hx. right. right.
  rewrite (touched_new_wal _ _ Hx). exact Hf.
Qed.

Lemma AllRec_save_snapshot : forall c lst d k sn, Rec c lst d -> dget d (NSnap k) = None ->
  AllRec c lst d (save_snapshot_effs k sn).
Proof.
  intros c lst d k sn R Hf. apply AllRec_fresh; [exact R|]. intros x Hx.
  destruct (touched_save_snapshot _ _ _ Hx) as [->| ->]; [right; left; eexists; reflexivity|right; right; exact Hf].
Qed.

(* Manifest::save: the first three effects only touch MANIFEST.tmp; the rename publishes m' at once *)
Lemma AllRec_save_manifest : forall c lst d m', Rec c lst d ->
  Rec c lst (apply_effs d (save_manifest_effs m')) -> AllRec c lst d (save_manifest_effs m').
Proof.
  intros c lst d m' R R' k torn Hk.
  destruct (Nat.le_gt_cases 4 k) as [G|L].
  - (* rename done: the directory is the final one (the directory fsync changes nothing) *)
    assert (E : crash_kill d (save_manifest_effs m') k torn = apply_effs d (save_manifest_effs m')).
    { cbn [length save_manifest_effs] in Hk.
      assert (k = 4 \/ k = 5)%nat as [->| ->] by lia; destruct torn; reflexivity. }
    rewrite E. exact R'.
  - replace (crash_kill d (save_manifest_effs m') k torn)
      with (crash_kill d (firstn 3 (save_manifest_effs m')) k torn).
    + apply AllRec_fresh; [exact R| |cbn; lia].
      intros x Hx. left. cbn in Hx. destruct Hx as [<-|[<-|[]]]; reflexivity.
    + assert (k = 0 \/ k = 1 \/ k = 2 \/ k = 3)%nat as [->|[->|[->| ->]]] by lia; destruct torn; reflexivity.
Qed.

Lemma seqs_from_firstn : forall es b k, seqs_from b es -> seqs_from b (firstn k es).
Proof.
  induction es as [|e r IH]; intros b k H; destruct k; cbn; try exact I.
  destruct H as [E H]. split; [exact E|apply IH; exact H].
Qed.

Lemma crash_fsync_nop : forall c a d j torn, crash_kill d (fsync_effs c a) j torn = d.
Proof.
  intros c a d j torn. unfold fsync_effs. destruct (c_fsync c); destruct j as [|[|j]]; destruct torn; reflexivity.
Qed.

(* a torn frame at the end of the active segment is invisible to the reader *)
Lemma InvD_torn_Rec : forall c lst d a nx frs, InvD c lst d a nx ->
  dget d a = Some (FWal frs Clean) -> Rec c lst (dset d a (FWal frs Torn)).
Proof.
  intros c lst d a nx frs H Ha.
  pose proof H as (m & sdocs & sseq & Hm & [pre Hpre] & Hnd & Hw & Hg & Hs & Hok & Hmx & Hrp).
  assert (Hin : In a (m_segments m)) by (rewrite Hpre; apply in_or_app; right; left; reflexivity).
  assert (Hwa : is_wal a) by (rewrite Forall_forall in Hw; apply Hw; exact Hin).
  destruct (is_wal_neq _ Hwa) as (N1 & N2 & N3 & N4).
  set (d' := dset d a (FWal frs Torn)).
  assert (Hent : forall x, entries_of d' x = entries_of d x).
  { intros x. unfold entries_of, d'. destruct (name_eqb_spec x a) as [->|Hne].
    - rewrite dget_dset_same, Ha. reflexivity.
    - rewrite dget_dset_other by exact Hne. reflexivity. }
  assert (Hall : all_entries d' (m_segments m) = all_entries d (m_segments m)).
  { unfold all_entries. clear - Hent. induction (m_segments m) as [|x r IH]; cbn; [reflexivity|].
    rewrite Hent, IH. reflexivity. }
  exists m, sdocs, sseq, nx. rewrite Hall.
  split; [unfold d'; rewrite dget_dset_other by congruence; exact Hm|]. split; [exact Hw|].
  split; [|split; [|split; [exact Hok|exact Hrp]]].
  - intros nm Hi. destruct (name_eqb_spec nm a) as [->|Hne].
    + destruct (Hg a Hin) as [es He]. rewrite Ha in He. inversion He; subst.
      exists es, Torn. unfold d'. rewrite dget_dset_same. split; [reflexivity|discriminate].
    + apply wal_good_readable. apply (wal_good_agree d d'); [unfold d'; apply dget_dset_other; exact Hne|].
      apply Hg. exact Hi.
  - apply (snap_ok_agree c d d'); [|exact Hs]. intros nm E. unfold d'. apply dget_dset_other.
    destruct (snap_ok_name _ _ _ _ _ _ Hs E) as [k ->]. apply not_eq_sym, N3.
Qed.

Lemma append_effs_length : forall a es, length (append_effs a es) = length es.
Proof. intros. unfold append_effs. apply map_length. Qed.

Lemma append_effs_firstn : forall a es k, firstn k (append_effs a es) = append_effs a (firstn k es).
Proof. intros. unfold append_effs. apply firstn_map. Qed.

Lemma append_crash : forall c lst d a nx es k torn,
  InvD c lst d a nx -> seqs_from nx es ->
  Forall (fun e => e_op e = Ins -> len (e_vec e) = c_dim c) es ->
  Rec c (fold_left apply_entry (firstn k es) lst)
      (crash_kill d (append_effs a es ++ fsync_effs c a) k torn).
Proof.
  intros c lst d a nx es k torn H Hs Hd.
  pose proof (InvD_append c lst d a nx (firstn k es) H (seqs_from_firstn _ _ k Hs) (Forall_firstn _ k _ Hd)) as HI.
  rewrite apply_effs_app, fsync_effs_nop in HI.
  destruct (Nat.lt_ge_cases k (length es)) as [L|G].
  - rewrite crash_app_lt by (rewrite append_effs_length; exact L).
    unfold crash_kill. rewrite append_effs_firstn.
    destruct torn; [|eapply InvD_Rec; exact HI].
    change (nth_error (append_effs a es) k) with (nth_error (map (fun e => EAppend a (BFrame (Good e))) es) k).
    rewrite nth_error_map.
    destruct (nth_error es k) as [e|] eqn:E; [|apply nth_error_None in E; lia].
    cbn [option_map torn_eff].
    pose proof HI as (m & sdocs & sseq & Hm & [pre Hpre] & _ & _ & Hg & _).
    destruct (Hg a) as [es0 He0]; [rewrite Hpre; apply in_or_app; right; left; reflexivity|].
    rewrite He0. eapply InvD_torn_Rec; [exact HI|exact He0].
  - assert (Ek : crash_kill d (append_effs a es ++ fsync_effs c a) k torn = apply_effs d (append_effs a es)).
    { replace k with (length (append_effs a es) + (k - length es))%nat by (rewrite append_effs_length; lia).
      rewrite crash_app_ge, crash_fsync_nop. reflexivity. }
    rewrite Ek. rewrite firstn_all2 in HI by lia. rewrite firstn_all2 by lia. eapply InvD_Rec. exact HI.
Qed.

Lemma newseg_allrec : forall c lst d a nx m, InvD c lst d a nx ->
  dget d NManifest = Some (FManifest m) ->
  AllRec c lst d (new_wal_effs (NWal (fresh_id d)) ++
                  save_manifest_effs (mkManifest (m_snapshot m) (m_snapshot_seq m)
                                                 (m_segments m ++ [NWal (fresh_id d)]))).
Proof.
  intros c lst d a nx m H Hm.
  assert (Hf : dget d (NWal (fresh_id d)) = None) by (apply fresh_none; reflexivity).
  assert (A : AllRec c lst d (new_wal_effs (NWal (fresh_id d))))
    by (apply AllRec_new_wal; [eapply InvD_Rec; exact H|exact Hf]).
  apply AllRec_app; [exact A|].
  apply AllRec_save_manifest; [apply AllRec_end; exact A|].
  eapply InvD_Rec. exact (InvD_newseg c lst d a nx m H Hm).
Qed.

Lemma rotate_allrec : forall c lst s, InvDs c lst s ->
  AllRec c lst (st_disk s) (snd (rotate_if_needed c s)).
Proof.
  intros c lst s H. destruct (rotate_cases c lst s H) as [->|(m & Hm & ->)]; cbn [snd].
  - apply AllRec_nil. eapply InvD_Rec. exact H.
  - exact (newseg_allrec c lst (st_disk s) (st_active s) (st_next_seq s) m H Hm).
Qed.

Lemma recover_allrec : forall c s s' effs, wf_cfg c = true -> Inv c s ->
  recover_full c Strict (st_disk s) = Ok (s', effs) -> AllRec c (st_store s) (st_disk s) effs.
Proof.
  intros c s s' effs Hwf HI E. pose proof HI as [H _]. pose proof H as (m & _ & _ & Hm & _).
  rewrite (recover_full_Inv c s m Hwf HI Hm) in E. inversion E; subst.
  exact (newseg_allrec c (st_store s) (st_disk s) (st_active s) (st_next_seq s) m H Hm).
Qed.

Lemma RecM_snapshot : forall c d0 a nx st m0 d segs' k last,
  InvD c st d0 a nx -> sorted st -> docs_ok c st -> last + 1 = nx ->
  dget d0 NManifest = Some (FManifest m0) ->
  (forall x, In x segs' -> In x (m_segments m0)) ->
  dget d NManifest = Some (FManifest (mkManifest (Some (NSnap k)) (Some last) segs')) ->
  dget d (NSnap k) = Some (FSnap (mkSnap (store_dim st) (c_metric c) st last)) ->
  (forall x, In x segs' -> dget d x = dget d0 x) ->
  RecM c st d (mkManifest (Some (NSnap k)) (Some last) segs').
Proof.
  intros c d0 a nx st m0 d segs' k last H Hso Hdo Hlast Hm0 Hsub Hmd Hsn Hag.
  destruct (snapshot_encodes c d0 a nx st m0 d segs' k last H Hso Hdo Hlast Hm0 Hsub Hsn Hag) as (E1 & E2 & E3 & E4 & _ & E6).
  exists st, last, nx. repeat (split; [assumption|]). split; [|auto].
  intros nm Hin. apply wal_good_readable. exact (E2 nm Hin).
Qed.

Lemma AllRec_app_inv : forall c lst d e1 e2, AllRec c lst d (e1 ++ e2) ->
  AllRec c lst d e1 /\ AllRec c lst (apply_effs d e1) e2.
Proof.
  intros c lst d e1 e2 A. split; intros k torn Hk.
  - destruct (Nat.eq_dec k (length e1)) as [->|Hne].
    + rewrite crash_all by lia. pose proof (A (length e1 + 0)%nat false) as X0. rewrite crash_app_ge in X0.
      apply X0. rewrite app_length. lia.
    + rewrite <- (crash_app_lt d e1 e2) by lia. apply A. rewrite app_length. lia.
  - rewrite <- crash_app_ge. apply A. rewrite app_length. lia.
Qed.

Lemma snapshot_blocks : forall c s m keep del,
  InvDs c (st_store s) s -> sorted (st_store s) -> docs_ok c (st_store s) ->
  dget (st_disk s) NManifest = Some (FManifest m) -> N.pred (st_next_seq s) + 1 = st_next_seq s ->
  (forall x, In x keep -> In x (m_segments m)) -> (forall x, In x del -> In x (m_segments m)) ->
  (forall x, In x del -> ~ In x keep) ->
  let X := st_store s in
  let e1 := save_snapshot_effs (fresh_id (st_disk s)) (snap_of c s) in
  let e2 := save_manifest_effs (snap_manifest s (m_segments m)) in
  let e3 := prune_effs s keep del in
  let e4 := save_manifest_effs (snap_manifest s keep) in
  let d1 := apply_effs (st_disk s) e1 in let d2 := apply_effs d1 e2 in let d4 := apply_effs d2 e3 in
  AllRec c X (st_disk s) e1 /\ AllRec c X d1 e2 /\ AllRec c X d2 e3 /\ AllRec c X d4 e4.
Proof.
  intros c s m keep del H Hso Hdo Hm Hlast C1 C2 Cdis X e1 e2 e3 e4 d1 d2 d4.
  pose proof (proj2 (InvD_wal _ _ _ _ _ _ H Hm)) as Hwal.
  set (d := st_disk s) in *. set (k := fresh_id d) in *. set (last := N.pred (st_next_seq s)) in *.
  set (sn := snap_of c s) in *. set (m1 := snap_manifest s (m_segments m)) in *. set (m2 := snap_manifest s keep) in *.
  assert (R0 : Rec c X d) by (eapply InvD_Rec; exact H).
  assert (A1 : AllRec c X d e1) by (apply AllRec_save_snapshot; [exact R0|apply fresh_none; reflexivity]).
  (* d' holds the snapshot file and still has every segment outside D as it was in d *)
  set (kept := fun (D : list name) (d' : dir) =>
         (forall x, is_wal x -> ~ In x D -> dget d' x = dget d x) /\ dget d' (NSnap k) = Some (FSnap sn)).
  assert (K1 : kept [] d1).
  { split; [|apply save_snapshot_get]. intros x Hx _. destruct (is_wal_neq _ Hx) as (_ & _ & N3 & N4).
    apply save_snapshot_other; [apply N3|apply N4]. }
  assert (Kman : forall D d' m', kept D d' -> kept D (apply_effs d' (save_manifest_effs m'))).
  { intros D d' m' [G S]. split; [|rewrite save_manifest_other by discriminate; exact S].
    intros x Hx HD. destruct (is_wal_neq _ Hx) as (N1 & N2 & _). rewrite save_manifest_other by assumption. exact (G x Hx HD). }
  assert (RS : forall D d' segs', kept D (apply_effs d' (save_manifest_effs (snap_manifest s segs'))) ->
            (forall x, In x segs' -> In x (m_segments m) /\ ~ In x D) ->
            RecM c X (apply_effs d' (save_manifest_effs (snap_manifest s segs'))) (snap_manifest s segs')).
  { intros D d' segs' [G S] Hsub.
    apply (RecM_snapshot c d (st_active s) (st_next_seq s) X m _ segs' k last H Hso Hdo Hlast Hm);
      [intros x Hx; apply Hsub; exact Hx|apply save_manifest_get|exact S|].
    intros x Hx. destruct (Hsub x Hx) as [Hi HD]. exact (G x (Hwal x Hi) HD). }
  pose proof (Kman _ _ m1 K1) as K2. fold d2 in K2.
  assert (R2 : Rec c X d2) by (exists m1; apply (RS [] d1 _ K2); auto).
  assert (A2 : AllRec c X d1 e2) by (apply AllRec_save_manifest; [apply AllRec_end; exact A1|exact R2]).
  (* the pruned list is saved before the unlinks, and only when there is something to unlink *)
  assert (A3 : AllRec c X d2 e3 /\ kept del d4).
  { unfold d4, e3, prune_effs. destruct del as [|x0 dr] eqn:Edel; [split; [apply AllRec_nil; exact R2|exact K2]|].
    rewrite <- Edel in *. fold m2. set (d3 := apply_effs d2 (save_manifest_effs m2)).
    pose proof (Kman _ _ m2 K2) as K3. fold d3 in K3.
    assert (RM3 : RecM c X d3 m2) by (apply (RS [] d2 _ K3); auto).
    split.
    - apply AllRec_app; [apply AllRec_save_manifest; [exact R2|exists m2; exact RM3]|].
      intros j torn _. exists m2. apply AllRec_untouched; [exact RM3|].
      intros x Hx. apply touched_unlinks in Hx. destruct (Hwal _ (C2 _ Hx)) as [i ->].
      intros [E|[Hr|Hr]]; [discriminate|exact (Cdis _ Hx Hr)|discriminate].
    - rewrite apply_effs_app. fold d3. destruct K3 as [G S]. split.
      + intros x Hx HD. rewrite unlinks_other by exact HD. apply G; [exact Hx|intros []].
      + rewrite unlinks_other; [exact S|]. intro Hin. destruct (Hwal _ (C2 _ Hin)) as [i Ei]. discriminate. }
  destruct A3 as [A3 K4].
  assert (R5 : Rec c X (apply_effs d4 e4)).
  { exists m2. apply (RS del d4 keep (Kman _ _ m2 K4)). intros x Hx. split; [exact (C1 x Hx)|intro Hd; exact (Cdis x Hd Hx)]. }
  repeat split; try assumption. apply AllRec_save_manifest; [apply AllRec_end; exact A3|exact R5].
Qed.

Lemma snapshot_allrec : forall c s,
  InvDs c (st_store s) s -> sorted (st_store s) -> docs_ok c (st_store s) ->
  AllRec c (st_store s) (st_disk s) (snd (create_snapshot c s)).
Proof.
  intros c s H Hso Hdo.
  destruct (create_snapshot_shape c s H Hso Hdo) as (m & keep & del & Hm & Hlast & C1 & C2 & _ & Cdis & _ & ->).
  destruct (snapshot_blocks c s m keep del H Hso Hdo Hm Hlast C1 C2 Cdis) as (A1 & A2 & A3 & A4).
  cbn [snd]. unfold snap_effs. repeat (apply AllRec_app; [assumption|]). exact A4.
Qed.

Lemma maybe_snapshot_allrec : forall c s,
  InvDs c (st_store s) s -> sorted (st_store s) -> docs_ok c (st_store s) ->
  AllRec c (st_store s) (st_disk s) (snd (maybe_snapshot c s)).
Proof.
  intros c s H Hso Hdo. destruct (maybe_snapshot_cases c s) as [-> | ->]; cbn [snd].
  - apply AllRec_nil. eapply InvD_Rec. exact H.
  - exact (snapshot_allrec c s H Hso Hdo).
Qed.

Definition dims_ok (c : cfg) (es : list entry) : Prop :=
  Forall (fun e => e_op e = Ins -> len (e_vec e) = c_dim c) es.

Lemma write_op_crash : forall c s o s' effs k torn, Logs c s o s' effs -> (k <= length effs)%nat ->
  Rec c (fold_left apply_entry (firstn k (op_entries c s o)) (st_store s)) (crash_kill (st_disk s) effs k torn).
Proof.
  intros c s o s' effs k torn (s1 & s3 & H & Hsq & Hdm & A1 & D1 & H3 & M3 & S3 & D3 & _ & ->) Hk.
  set (es := op_entries c s o) in *. set (e1 := append_effs (st_active s) es ++ fsync_effs c (st_active s)) in *.
  destruct (Nat.lt_ge_cases k (length e1)) as [L|G].
  - rewrite crash_app_lt by exact L. exact (append_crash c _ _ _ (st_next_seq s) es k torn H Hsq Hdm).
  - replace k with (length e1 + (k - length e1))%nat by lia. rewrite crash_app_ge, <- D1.
    rewrite firstn_all2 by (unfold e1; rewrite app_length, append_effs_length; lia).
    pose proof M3 as (So3 & Do3 & _). rewrite <- S3 in H3.
    apply AllRec_app; [exact (rotate_allrec c _ s1 A1)|rewrite <- D3, <- S3; exact (maybe_snapshot_allrec c s3 H3 So3 Do3)|].
    rewrite app_length in Hk. lia.
Qed.

Theorem step_crash : forall c s o s' out effs k torn,
  wf_cfg c = true -> norm_ok_acc c -> Inv c s ->
  step c s o = (s', out, effs) -> (k <= length effs)%nat -> known_op s o k = false ->
  Rec c (st_store s) (crash_kill (st_disk s) effs k torn) \/
  Rec c (st_store s') (crash_kill (st_disk s) effs k torn).
Proof.
  intros c s o s' out effs k torn Hwf Hn HI Hst Hk Hkn. pose proof HI as [H M].
  destruct (step_shape c s o s' out effs Hwf Hn HI Hst) as [(-> & _)|[L|[(-> & E)|(-> & E)]]].
  - left. rewrite crash_nil. eapply InvD_Rec. exact H.
  - (* k entries survive: none is the old collection, all is the new one, anything else is the recorded class *)
    pose proof (write_op_crash c s o s' effs k torn L Hk) as W. destruct (Logs_inv _ _ _ _ _ L) as [_ W2].
    destruct k as [|k]; [left; exact W|right]. rewrite W2. rewrite firstn_all2 in W; [exact W|].
    destruct (op_entries_length c s o) as [Hl|(ids & -> & Hl)]; [lia|]. rewrite Hl. cbn [known_op] in Hkn.
    destruct (Nat.lt_ge_cases (S k) (length (filter (mem (st_store s)) ids))) as [Lt|G]; [exfalso|exact G].
    assert (Hk2 : (2 <= length (filter (mem (st_store s)) ids))%nat) by lia.
    apply Nat.leb_le in Hk2. apply Nat.ltb_lt in Lt. rewrite Hk2, Lt in Hkn. discriminate.
  - left. destruct M as (A & B & _). pose proof (snapshot_allrec c s H A B) as X. rewrite E in X. apply X. exact Hk.
  - left. exact (recover_allrec c s s' effs Hwf HI E k torn Hk).
Qed.

Lemma Inv_mem : forall c s, Inv c s -> docs_ok c (st_store s) /\ size (st_store s) <= c_capacity c.
Proof. intros c s [_ (A & B & C & D)]. split; [exact B|lia]. Qed.

Theorem kill_op : forall c s o s' out effs k torn,
  wf_cfg c = true -> norm_ok_acc c -> Inv c s ->
  step c s o = (s', out, effs) -> (k <= length effs)%nat -> known_op s o k = false ->
  exists r, start c (crash_kill (st_disk s) effs k torn) = SOk r /\
            (st_store r = st_store s \/ st_store r = st_store s').
Proof.
  intros c s o s' out effs k torn Hwf Hn HI Hst Hk Hkn.
  pose proof (step_inv c s o s' out effs Hwf Hn HI Hst) as HI'.
  destruct (Inv_mem _ _ HI) as [D1 S1]. destruct (Inv_mem _ _ HI') as [D2 S2].
  destruct (step_crash c s o s' out effs k torn Hwf Hn HI Hst Hk Hkn) as [R|R].
  - destruct (Rec_start c _ _ Hwf R D1 S1) as (r & E & Es). exists r. auto.
  - destruct (Rec_start c _ _ Hwf R D2 S2) as (r & E & Es). exists r. auto.
Qed.

Theorem kill_run : forall c ops s n torn,
  wf_cfg c = true -> norm_ok_acc c -> Inv c s -> known_run c s ops n = false ->
  exists r, start c (cp_dir (crash_run c s ops n torn)) = SOk r /\
            (st_store r = cp_acked (crash_run c s ops n torn) \/
             st_store r = cp_inflight (crash_run c s ops n torn)).
Proof.
  intros c ops. induction ops as [|o rest IH]; intros s n torn Hwf Hn HI Hkn.
  - cbn [crash_run cp_dir cp_acked cp_inflight]. destruct (Inv_mem _ _ HI) as [D1 S1].
    destruct HI as [H _].
    destruct (Rec_start c _ _ Hwf (InvD_Rec _ _ _ _ _ H) D1 S1) as (r & E & Es). exists r. auto.
  - cbn [crash_run known_run] in *. destruct (step c s o) as [[s' out] effs] eqn:Hst.
    destruct (Nat.leb n (length effs)) eqn:Hle.
    + cbn [cp_dir cp_acked cp_inflight]. apply Nat.leb_le in Hle.
      exact (kill_op c s o s' out effs n torn Hwf Hn HI Hst Hle Hkn).
    + apply IH; try assumption. exact (step_inv c s o s' out effs Hwf Hn HI Hst).
Qed.

Lemma kill_init : forall c n torn, wf_cfg c = true -> (n <= length init_effs)%nat ->
  exists r, start c (crash_kill [] init_effs n torn) = SOk r /\ st_store r = empty.
Proof.
  intros c n torn Hwf Hn. cbn in Hn.
  destruct (Nat.le_gt_cases 7 n) as [G|L].
  - assert (E : crash_kill [] init_effs n torn = st_disk (init c)).
    { assert (n = 7 \/ n = 8)%nat as [->| ->] by lia; destruct torn; reflexivity. }
    rewrite E. pose proof (init_inv c Hwf) as HI. destruct (Inv_mem _ _ HI) as [D1 S1]. destruct HI as [H _].
    exact (Rec_start c _ _ Hwf (InvD_Rec _ _ _ _ _ H) D1 S1).
  - assert (n = 0 \/ n = 1 \/ n = 2 \/ n = 3 \/ n = 4 \/ n = 5 \/ n = 6)%nat
      as [->|[->|[->|[->|[->|[->| ->]]]]]] by lia;
      destruct torn; (eexists; split; [vm_compute; reflexivity|reflexivity]).
Qed.

Theorem kill_hist : forall c ops n torn,
  wf_cfg c = true -> norm_ok_acc c -> known_c01 c ops n = false ->
  exists r, start c (cp_dir (crash_hist c ops n torn)) = SOk r /\
            (st_store r = cp_acked (crash_hist c ops n torn) \/
             st_store r = cp_inflight (crash_hist c ops n torn)).
Proof.
  intros c ops n torn Hwf Hn Hkn. unfold crash_hist, known_c01 in *.
  destruct (Nat.leb n (length init_effs)) eqn:Hle.
  - cbn [cp_dir cp_acked cp_inflight]. apply Nat.leb_le in Hle.
    destruct (kill_init c n torn Hwf Hle) as (r & E & Es). exists r. auto.
  - apply kill_run; try assumption. apply init_inv. exact Hwf.
Qed.

Theorem restart_idem : forall c s k torn s' effs, wf_cfg c = true -> Inv c s ->
  recover_full c Strict (st_disk s) = Ok (s', effs) -> (k <= length effs)%nat ->
  exists r, start c (crash_kill (st_disk s) effs k torn) = SOk r /\
            st_store r = st_store s /\ st_store s' = st_store s.
Proof.
  intros c s k torn s' effs Hwf HI E Hk.
  destruct (Inv_mem _ _ HI) as [D1 S1].
  pose proof (recover_allrec c _ s' effs Hwf HI E k torn Hk) as R.
  destruct (Rec_start c _ _ Hwf R D1 S1) as (r & Er & Es). exists r. split; [exact Er|]. split; [exact Es|].
  destruct (recover_inv c _ Hwf HI) as (s2 & e2 & E2 & Es2 & _). rewrite E in E2. inversion E2; subst. exact Es2.
Qed.

Lemma list_eqb_refl : forall A (eqb : A -> A -> bool) l, (forall x, In x l -> eqb x x = true) -> list_eqb eqb l l = true.
Proof.
  induction l as [|x l IH]; intros H; cbn; [reflexivity|].
  rewrite (H x (or_introl eq_refl)), IH; [reflexivity|]. intros y Hy. apply H. right. exact Hy.
Qed.

Lemma store_eqb_refl : forall st, store_eqb st st = true.
Proof.
  intros st. apply list_eqb_refl. intros [i d] _. cbn [fst snd]. rewrite N.eqb_refl.
  unfold doc_eqb, vec_eqb, meta_eqb, bytes_eqb. rewrite !list_eqb_refl; try reflexivity.
  - intros [k v] _. cbn [fst snd]. rewrite !list_eqb_refl; auto using N.eqb_refl.
  - auto using Z.eqb_refl.
Qed.

Lemma store_in_point_ok : forall p r s, r = SOk s -> st_store s = cp_acked p \/ st_store s = cp_inflight p ->
  store_in_point p r = true.
Proof. intros p r s -> [E|E]; cbn; rewrite E, store_eqb_refl; [reflexivity|apply orb_true_r]. Qed.

Theorem kill_bad_nil : forall c ops, wf_cfg c = true -> norm_ok_acc c -> kill_bad c ops = [].
Proof.
  intros c ops Hwf Hn. unfold kill_bad. apply flat_map_nil. intros n _.
  destruct (known_c01 c ops n) eqn:K; [reflexivity|].
  destruct (kill_hist c ops n false Hwf Hn K) as (r & E & S). destruct (kill_hist c ops n true Hwf Hn K) as (r' & E' & S').
  cbn. rewrite (store_in_point_ok _ _ _ E S), (store_in_point_ok _ _ _ E' S'). reflexivity.
Qed.
