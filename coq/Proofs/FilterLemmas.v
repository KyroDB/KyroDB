(* Base lemmas for Model/Filter.v (C11): strings, association maps, bitmaps, posting maps, f64 order key. *)
From Coq Require Import List NArith ZArith Bool Arith Lia.
From Kyro Require Import Model.Filter Proofs.ListFacts.
Import ListNotations.

Lemma str_eqb_spec : forall a b, reflect (a = b) (str_eqb a b).
Proof.
  induction a as [|x a IH]; destruct b as [|y b]; cbn [str_eqb]; try (constructor; congruence).
  destruct (N.eqb_spec x y) as [->|Hn]; cbn [andb].
  - destruct (IH b) as [->|Hn]; constructor; congruence.
  - constructor; congruence.
Qed.

Lemma str_eqb_refl : forall a, str_eqb a a = true.
Proof. intro a. destruct (str_eqb_spec a a); congruence. Qed.

Lemma str_eqb_sym : forall a b, str_eqb a b = str_eqb b a.
Proof. intros a b. destruct (str_eqb_spec a b), (str_eqb_spec b a); congruence. Qed.

Section AMapLemmas.
  Context {K V : Type} (eqb : K -> K -> bool).
  Hypothesis eqb_spec : forall a b, reflect (a = b) (eqb a b).

  Lemma eqb_refl' : forall a, eqb a a = true.
  Proof. intro a. destruct (eqb_spec a a); congruence. Qed.
  Lemma eqb_sym' : forall a b, eqb a b = eqb b a.
  Proof. intros a b. destruct (eqb_spec a b), (eqb_spec b a); congruence. Qed.

  Lemma aget_aset : forall (k k' : K) (v : V) m,
    aget eqb k' (aset eqb k v m) = if eqb k k' then Some v else aget eqb k' m.
  Proof.
    intros k k' v m. induction m as [|[k0 v0] r IH]; cbn [aset aget].
    - rewrite (eqb_sym' k' k). reflexivity.
    - destruct (eqb_spec k k0) as [->|Hn]; cbn [aget].
      + rewrite (eqb_sym' k' k0). destruct (eqb k0 k'); reflexivity.
      + rewrite IH. destruct (eqb_spec k' k0) as [->|Hn2].
        * destruct (eqb_spec k k0); [congruence|reflexivity].
        * reflexivity.
  Qed.

  Lemma aget_adel : forall (k k' : K) (m : list (K * V)),
    aget eqb k' (adel eqb k m) = if eqb k k' then None else aget eqb k' m.
  Proof.
    intros k k' m. induction m as [|[k0 v0] r IH]; cbn [adel filter aget fst].
    - destruct (eqb k k'); reflexivity.
    - fold (adel eqb k r). destruct (eqb_spec k k0) as [->|Hn]; cbn [negb aget].
      + rewrite IH. rewrite (eqb_sym' k' k0). destruct (eqb k0 k'); reflexivity.
      + rewrite IH. destruct (eqb_spec k' k0) as [->|Hn2].
        * destruct (eqb_spec k k0); [congruence|reflexivity].
        * reflexivity.
  Qed.

  Lemma aget_some_in_keys : forall (k : K) (m : list (K * V)) v,
    aget eqb k m = Some v -> In k (akeys m).
  Proof.
    intros k m v. induction m as [|[k0 v0] r IH]; cbn [aget akeys map fst]; [discriminate|].
    destruct (eqb_spec k k0) as [->|Hn]; [left; reflexivity|]. intro H. right. apply IH, H.
  Qed.
End AMapLemmas.

Lemma bm_mem_cons : forall j i b, bm_mem j (i :: b) = (i =? j) || bm_mem j b.
Proof. intros. unfold bm_mem. cbn [existsb]. rewrite (Nat.eqb_sym j i). reflexivity. Qed.

Lemma bm_mem_nil : forall j, bm_mem j [] = false.
Proof. reflexivity. Qed.

Lemma bm_mem_In : forall j b, bm_mem j b = true <-> In j b.
Proof.
  intros j b. unfold bm_mem. rewrite existsb_exists. split.
  - intros [x [Hx He]]. apply Nat.eqb_eq in He. subst. exact Hx.
  - intro H. exists j. split; [exact H|apply Nat.eqb_refl].
Qed.

Lemma bm_mem_insert : forall j i b, bm_mem j (bm_insert i b) = (i =? j) || bm_mem j b.
Proof.
  intros j i b. unfold bm_insert. destruct (bm_mem i b) eqn:E.
  - destruct (Nat.eqb_spec i j) as [->|Hn]; cbn [orb]; [exact E|reflexivity].
  - apply bm_mem_cons.
Qed.

Lemma bm_mem_filter : forall j p b, bm_mem j (filter p b) = p j && bm_mem j b.
Proof.
  intros j p b. induction b as [|x b IH]; cbn [filter].
  - rewrite bm_mem_nil. rewrite andb_false_r. reflexivity.
  - destruct (p x) eqn:E; rewrite ?bm_mem_cons, IH.
    + destruct (Nat.eqb_spec x j) as [->|Hn]; cbn [orb]; [rewrite E|]; reflexivity.
    + destruct (Nat.eqb_spec x j) as [->|Hn]; cbn [orb]; [rewrite E|]; reflexivity.
Qed.

Lemma bm_mem_remove : forall j i b, bm_mem j (bm_remove i b) = negb (i =? j) && bm_mem j b.
Proof. intros. unfold bm_remove. apply bm_mem_filter. Qed.

Lemma bm_mem_app : forall j a b, bm_mem j (a ++ b) = bm_mem j a || bm_mem j b.
Proof. intros. unfold bm_mem. apply existsb_app. Qed.

Lemma bm_mem_or : forall j a b, bm_mem j (bm_or a b) = bm_mem j a || bm_mem j b.
Proof.
  intros. unfold bm_or. rewrite bm_mem_app, bm_mem_filter.
  destruct (bm_mem j a); reflexivity.
Qed.

Lemma bm_mem_and : forall j a b, bm_mem j (bm_and a b) = bm_mem j a && bm_mem j b.
Proof. intros. unfold bm_and. rewrite bm_mem_filter. apply andb_comm. Qed.

Lemma bm_mem_diff : forall j a b, bm_mem j (bm_diff a b) = bm_mem j a && negb (bm_mem j b).
Proof. intros. unfold bm_diff. rewrite bm_mem_filter. apply andb_comm. Qed.

Lemma bm_empty_mem : forall j b, bm_is_empty b = true -> bm_mem j b = false.
Proof. intros j [|x b]; [reflexivity|discriminate]. Qed.

Lemma sorted_insert_In : forall i j l, In j (sorted_insert i l) <-> j = i \/ In j l.
Proof.
  intros i j l. induction l as [|x l IH]; cbn [sorted_insert].
  - cbn. intuition congruence.
  - destruct (i <? x); [cbn; intuition congruence|].
    destruct (Nat.eqb_spec i x) as [->|Hn]; cbn [In]; [|rewrite IH]; intuition congruence.
Qed.

Lemma bm_iter_In : forall j b, In j (bm_iter b) <-> bm_mem j b = true.
Proof.
  intros j b. rewrite bm_mem_In. unfold bm_iter. induction b as [|x b IH]; cbn [fold_right].
  - reflexivity.
  - rewrite sorted_insert_In, IH. cbn. intuition congruence.
Qed.

(* inserting x into the filtered enumeration of an interval around x widens the filter by x *)
Lemma sorted_insert_filter_seq : forall (p : nat -> bool) x n a, a <= x < a + n ->
  sorted_insert x (filter p (seq a n)) = filter (fun i => (x =? i) || p i) (seq a n).
Proof.
  intros p x. induction n as [|n IH]; intros a H; [lia|]. cbn [seq filter].
  destruct (Nat.eqb_spec x a) as [->|Hn]; cbn [orb].
  - replace (filter (fun i => (a =? i) || p i) (seq (S a) n)) with (filter p (seq (S a) n)).
    2: { apply filter_ext_in. intros i Hi. apply in_seq in Hi. destruct (Nat.eqb_spec a i); [lia|reflexivity]. }
    destruct (p a); cbn [sorted_insert]; [rewrite Nat.ltb_irrefl, Nat.eqb_refl; reflexivity|].
    destruct (filter p (seq (S a) n)) as [|y r] eqn:F; [reflexivity|]. cbn [sorted_insert].
    assert (Hy : In y (filter p (seq (S a) n))) by (rewrite F; left; reflexivity).
    apply filter_In, proj1, in_seq in Hy. destruct (Nat.ltb_spec a y); [reflexivity|lia].
  - rewrite <- (IH (S a)) by lia. destruct (p a); [|reflexivity]. cbn [sorted_insert].
    destruct (Nat.ltb_spec x a); [lia|]. destruct (Nat.eqb_spec x a); [contradiction|reflexivity].
Qed.

Lemma bm_iter_seq : forall b n, (forall i, bm_mem i b = true -> i < n) ->
  bm_iter b = filter (fun i => bm_mem i b) (seq 0 n).
Proof.
  induction b as [|x b IH]; intros n H; cbn [bm_iter fold_right]; [symmetry; apply filter_none; reflexivity|].
  fold (bm_iter b). rewrite (IH n) by (intros i Hi; apply H; rewrite bm_mem_cons, Hi; apply orb_true_r).
  rewrite sorted_insert_filter_seq by (split; [lia|apply H; rewrite bm_mem_cons, Nat.eqb_refl; reflexivity]).
  apply filter_ext. intros i. rewrite bm_mem_cons. reflexivity.
Qed.

Section PostingLemmas.
  Context {K1 K2 : Type} (eq1 : K1 -> K1 -> bool) (eq2 : K2 -> K2 -> bool).
  Hypothesis eq1_spec : forall a b, reflect (a = b) (eq1 a b).
  Hypothesis eq2_spec : forall a b, reflect (a = b) (eq2 a b).

  (* a missing key reads as the empty posting, so dropping an emptied entry is invisible to lookups *)
  Lemma get1_add1 : forall k k' i (m : list (K2 * bitmap)),
    get1 eq2 k' (add1 eq2 k i m) = if eq2 k k' then bm_insert i (get1 eq2 k m) else get1 eq2 k' m.
  Proof. intros. unfold add1, get1 at 1. rewrite (aget_aset eq2 eq2_spec). destruct (eq2 k k'); reflexivity. Qed.

  Lemma get1_rem1 : forall k k' i (m : list (K2 * bitmap)),
    get1 eq2 k' (rem1 eq2 k i m) = if eq2 k k' then bm_remove i (get1 eq2 k m) else get1 eq2 k' m.
  Proof.
    intros. unfold rem1, get1. destruct (aget eq2 k m) as [b|] eqn:E; cbv zeta.
    - destruct (bm_is_empty (bm_remove i b)) eqn:Em;
        [rewrite (aget_adel eq2 eq2_spec)|rewrite (aget_aset eq2 eq2_spec)]; destruct (eq2 k k'); try reflexivity.
      destruct (bm_remove i b); [reflexivity|discriminate].
    - destruct (eq2_spec k k') as [<-|_]; [rewrite E|]; reflexivity.
  Qed.

  Lemma getm_add2 : forall k v k' i (m : list (K1 * list (K2 * bitmap))),
    getm eq1 k' (add2 eq1 eq2 k v i m) = if eq1 k k' then add1 eq2 v i (getm eq1 k m) else getm eq1 k' m.
  Proof. intros. unfold add2, getm at 1. rewrite (aget_aset eq1 eq1_spec). destruct (eq1 k k'); reflexivity. Qed.

  Lemma getm_rem2 : forall k v k' i (m : list (K1 * list (K2 * bitmap))),
    getm eq1 k' (rem2 eq1 eq2 k v i m) = if eq1 k k' then rem1 eq2 v i (getm eq1 k m) else getm eq1 k' m.
  Proof.
    intros. unfold rem2, getm. destruct (aget eq1 k m) as [values|] eqn:E; cbv zeta.
    - destruct (rem1 eq2 v i values);
        [rewrite (aget_adel eq1 eq1_spec)|rewrite (aget_aset eq1 eq1_spec)]; destruct (eq1 k k'); reflexivity.
    - destruct (eq1_spec k k') as [<-|_]; [rewrite E|]; reflexivity.
  Qed.

  Lemma mem_get1_add1 : forall j k k' i (m : list (K2 * bitmap)),
    bm_mem j (get1 eq2 k' (add1 eq2 k i m)) = bm_mem j (get1 eq2 k' m) || (eq2 k k' && (i =? j)).
  Proof.
    intros. rewrite get1_add1. destruct (eq2_spec k k') as [->|_]; cbn [andb].
    - rewrite bm_mem_insert. apply orb_comm.
    - rewrite orb_false_r. reflexivity.
  Qed.

  Lemma mem_get1_rem1 : forall j k k' i (m : list (K2 * bitmap)),
    bm_mem j (get1 eq2 k' (rem1 eq2 k i m)) = bm_mem j (get1 eq2 k' m) && negb (eq2 k k' && (i =? j)).
  Proof.
    intros. rewrite get1_rem1. destruct (eq2_spec k k') as [->|_]; cbn [andb negb].
    - rewrite bm_mem_remove. apply andb_comm.
    - rewrite andb_true_r. reflexivity.
  Qed.

  Lemma mem_get2_add2 : forall j k v k' v' i (m : list (K1 * list (K2 * bitmap))),
    bm_mem j (get2 eq1 eq2 k' v' (add2 eq1 eq2 k v i m))
    = bm_mem j (get2 eq1 eq2 k' v' m) || (eq1 k k' && eq2 v v' && (i =? j)).
  Proof.
    intros. unfold get2. rewrite getm_add2. destruct (eq1_spec k k') as [->|_]; cbn [andb].
    - apply mem_get1_add1.
    - rewrite orb_false_r. reflexivity.
  Qed.

  Lemma mem_get2_rem2 : forall j k v k' v' i (m : list (K1 * list (K2 * bitmap))),
    bm_mem j (get2 eq1 eq2 k' v' (rem2 eq1 eq2 k v i m))
    = bm_mem j (get2 eq1 eq2 k' v' m) && negb (eq1 k k' && eq2 v v' && (i =? j)).
  Proof.
    intros. unfold get2. rewrite getm_rem2. destruct (eq1_spec k k') as [->|_]; cbn [andb negb].
    - apply mem_get1_rem1.
    - rewrite andb_true_r. reflexivity.
  Qed.

  Lemma mem_union_fold : forall (j : nat) (p : K2 -> bool) (m : list (K2 * bitmap)) (ks : list K2) (acc : bitmap),
    bm_mem j (fold_left (fun (acc : bitmap) (k : K2) => if p k then bm_or acc (get1 eq2 k m) else acc) ks acc)
    = bm_mem j acc || existsb (fun k => p k && bm_mem j (get1 eq2 k m)) ks.
  Proof.
    intros j p m ks. induction ks as [|k ks IH]; intro acc; cbn [fold_left existsb]; [symmetry; apply orb_false_r|].
    rewrite IH. destruct (p k); cbn [andb orb]; [rewrite bm_mem_or, orb_assoc|]; reflexivity.
  Qed.

  Lemma mem_union_where : forall (j : nat) (p : K2 -> bool) (m : list (K2 * bitmap)),
    bm_mem j (union_where eq2 p m) = true
    <-> exists k, p k = true /\ bm_mem j (get1 eq2 k m) = true.
  Proof.
    intros. unfold union_where. rewrite mem_union_fold, bm_mem_nil. cbn [orb]. rewrite existsb_exists. split.
    - intros (k & _ & H). apply andb_true_iff in H. exists k. exact H.
    - intros (k & Hp & Hm). exists k. split; [|rewrite Hp, Hm; reflexivity].
      unfold get1 in Hm. destruct (aget eq2 k m) as [b|] eqn:E; [|discriminate].
      eapply (aget_some_in_keys eq2 eq2_spec), E.
  Qed.

  (* j sits in the posting of at most one key o: then j is in the union over p iff p holds of o *)
  Lemma mem_union_where_single : forall (j : nat) (p : K2 -> bool) (m : list (K2 * bitmap)) (o : option K2),
    (forall z, bm_mem j (get1 eq2 z m) = match o with Some z' => eq2 z' z | None => false end) ->
    bm_mem j (union_where eq2 p m) = match o with Some z => p z | None => false end.
  Proof.
    intros j p m o H. apply eq_iff_eq_true. rewrite mem_union_where. split.
    - intros (z & Hp & Hm). rewrite H in Hm. destruct o as [z'|]; [|discriminate].
      destruct (eq2_spec z' z); [subst; exact Hp|discriminate].
    - destruct o as [z|]; [|discriminate]. intro Hp. exists z. split; [exact Hp|]. rewrite H.
      destruct (eq2_spec z z); congruence.
  Qed.
End PostingLemmas.

Lemma two63_pos : (0 < two63)%Z. Proof. reflexivity. Qed.

Lemma f64_norm_range : forall z, (0 <= f64_norm z < two64)%Z.
Proof. intro z. unfold f64_norm. apply Z.mod_pos_bound. reflexivity. Qed.

Lemma f64_mag_cases : forall a, (0 <= a < two64)%Z ->
  (a < two63 /\ f64_mag a = a /\ f64_neg a = false)%Z \/
  (two63 <= a /\ f64_mag a = a - two63 /\ f64_neg a = true)%Z.
Proof.
  intros a Ha. unfold f64_mag, f64_neg. destruct (Z.leb_spec two63 a) as [Hge|Hlt].
  - right. split; [exact Hge|]. split; [|reflexivity].
    symmetry. apply (Z.mod_unique_pos a two63 1 (a - two63)); unfold two63, two64 in *; lia.
  - left. split; [exact Hlt|]. split; [|reflexivity]. apply Z.mod_small. lia.
Qed.

(* the code's ordered key is the signed magnitude shifted: order-isomorphic on non-NaN values *)
Lemma okey_sval : forall a, (0 <= a < two64)%Z -> f64_is_nan a = false ->
  okey a = (if (f64_sval a <? 0)%Z then f64_sval a + two63 - 1 else f64_sval a + two63)%Z.
Proof.
  intros a Ha Hnan. unfold okey, f64_eq, f64_ord. rewrite Hnan.
  change (f64_is_nan 0) with false. change (f64_sval 0) with 0%Z. cbn [negb andb].
  unfold f64_sval. destruct (f64_mag_cases a Ha) as [[H1 [H2 H3]]|[H1 [H2 H3]]]; rewrite H2, H3.
  - destruct (Z.eqb_spec a 0) as [->|Hn]; [reflexivity|].
    destruct (Z.ltb_spec a two63); [|lia]. destruct (Z.ltb_spec a 0); [lia|reflexivity].
  - destruct (Z.eqb_spec (- (a - two63)) 0) as [E|Hn].
    + assert (a = two63) by lia. subst a. reflexivity.
    + destruct (Z.ltb_spec a two63); [lia|]. destruct (Z.ltb_spec (- (a - two63)) 0); [|lia].
      unfold two63, two64 in *. lia.
Qed.

Lemma okey_compare : forall a b, (0 <= a < two64)%Z -> (0 <= b < two64)%Z ->
  f64_is_nan a = false -> f64_is_nan b = false ->
  (okey a ?= okey b)%Z = (f64_sval a ?= f64_sval b)%Z.
Proof.
  intros a b Ha Hb Na Nb. rewrite (okey_sval a Ha Na), (okey_sval b Hb Nb).
  destruct (Z.ltb_spec (f64_sval a) 0), (Z.ltb_spec (f64_sval b) 0), (Z.compare_spec (f64_sval a) (f64_sval b));
    first [apply Z.compare_eq_iff | apply Z.compare_lt_iff | apply Z.compare_gt_iff]; unfold two63; lia.
Qed.

(* OrderedF64::from_f64 is order-isomorphic to the IEEE comparison on non-NaN values (after -0 canonicalisation) *)
Lemma okey_order : forall a b, (0 <= a < two64)%Z -> (0 <= b < two64)%Z ->
  f64_is_nan a = false -> f64_is_nan b = false ->
  (okey a <=? okey b)%Z = f64_le a b /\ (okey a <? okey b)%Z = f64_lt a b
  /\ ((okey a =? okey b)%Z = f64_eq a b).
Proof.
  intros a b Ha Hb Na Nb. unfold f64_le, f64_lt, f64_eq, f64_ord. rewrite Na, Nb. cbn [negb andb].
  rewrite !Z.eqb_compare. unfold Z.leb, Z.ltb. rewrite (okey_compare a b Ha Hb Na Nb). auto.
Qed.

Lemma f64_cmp_nan : forall a b, f64_is_nan a = true \/ f64_is_nan b = true ->
  f64_lt a b = false /\ f64_le a b = false /\ f64_gt a b = false /\ f64_ge a b = false.
Proof.
  intros a b H. unfold f64_gt, f64_ge, f64_lt, f64_le, f64_ord.
  destruct H as [H|H]; rewrite H; cbn [negb andb]; rewrite ?andb_false_r; auto.
Qed.
