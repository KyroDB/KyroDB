(* Facts about lists and pairs that the standard library of Coq 8.16 lacks and several proof files need. *)
From Coq Require Import List Arith NArith Bool Lia Sorted.
Import ListNotations.

Lemma fst_let : forall {A B C} (p : A * B) (f : B -> C), fst (let '(a, b) := p in (a, f b)) = fst p.
Proof. intros A B C [a b] f. reflexivity. Qed.

Lemma let_fst : forall {A B C} (p : A * B) (f : A -> C), (let '(a, _) := p in f a) = f (fst p).
Proof. intros A B C [a b] f. reflexivity. Qed.

Section Lists.
Context {A B : Type}.

Lemma in_firstn : forall n (l : list A) x, In x (firstn n l) -> In x l.
Proof. intros n l x H. rewrite <- (firstn_skipn n l). apply in_or_app. left. exact H. Qed.

Lemma NoDup_snoc : forall (l : list A) x, NoDup l -> ~ In x l -> NoDup (l ++ [x]).
Proof. intros l x ND NI. apply (NoDup_Add (Add_app x l [])). rewrite app_nil_r. split; assumption. Qed.

Lemma NoDup_map_filter : forall (f : A -> B) p l, NoDup (map f l) -> NoDup (map f (filter p l)).
Proof.
  intros f p; induction l as [|a l IH]; cbn; intros ND; [constructor|].
  inversion ND as [|? ? NI ND']; subst. destruct (p a); cbn; auto. constructor; auto.
  intros H. apply NI. apply in_map_iff in H. destruct H as (y & E & Hy). apply filter_In in Hy.
  rewrite <- E. apply in_map. apply Hy.
Qed.

Lemma NoDup_map_inj : forall (f : A -> B) l a b, NoDup (map f l) -> In a l -> In b l -> f a = f b -> a = b.
Proof.
  intros f; induction l as [|x l IH]; cbn; intros a b ND Ha Hb E; [contradiction|].
  inversion ND as [|? ? NI ND']; subst.
  destruct Ha as [->|Ha], Hb as [->|Hb]; auto.
  - exfalso. apply NI. rewrite E. apply in_map. exact Hb.
  - exfalso. apply NI. rewrite <- E. apply in_map. exact Ha.
Qed.

Lemma filter_length_le : forall (p : A -> bool) l, length (filter p l) <= length l.
Proof. intros p; induction l as [|a l IH]; cbn; [lia|]. destruct (p a); cbn; lia. Qed.

Lemma filter_all : forall (p : A -> bool) l, (forall a, In a l -> p a = true) -> filter p l = l.
Proof.
  intros p; induction l as [|a l IH]; cbn; intros H; [reflexivity|].
  rewrite (H a (or_introl eq_refl)). f_equal. apply IH. intros b Hb. apply H. right. exact Hb.
Qed.

Lemma filter_none : forall (p : A -> bool) l, (forall a, In a l -> p a = false) -> filter p l = [].
Proof.
  intros p; induction l as [|a l IH]; cbn; intros H; [reflexivity|].
  rewrite (H a (or_introl eq_refl)). apply IH. intros b Hb. apply H. right. exact Hb.
Qed.

Lemma flat_map_nil : forall (f : A -> list B) l, (forall x, In x l -> f x = []) -> flat_map f l = [].
Proof.
  intros f; induction l as [|x l IH]; cbn; intros H; [reflexivity|].
  rewrite (H x (or_introl eq_refl)). apply IH. intros y Hy. apply H. right. exact Hy.
Qed.

Lemma Forall_firstn : forall (P : A -> Prop) k l, Forall P l -> Forall P (firstn k l).
Proof. intros P k l H. rewrite <- (firstn_skipn k l) in H. apply Forall_app in H. apply H. Qed.

Lemma filter_comm : forall (f g : A -> bool) l, filter f (filter g l) = filter g (filter f l).
Proof.
  intros f g; induction l as [|x l IH]; cbn; [reflexivity|].
  destruct (g x) eqn:Eg; destruct (f x) eqn:Ef; cbn; rewrite ?Eg, ?Ef, IH; reflexivity.
Qed.

(* a filter that keeps everything a later filter keeps can be dropped *)
Lemma filter_absorb : forall (f g : A -> bool) l,
  (forall x, In x l -> g x = true -> f x = true) -> filter g (filter f l) = filter g l.
Proof.
  intros f g; induction l as [|x l IH]; intro H; cbn; [reflexivity|].
  destruct (g x) eqn:Eg.
  - rewrite (H x (or_introl eq_refl) Eg). cbn. rewrite Eg. f_equal. apply IH. intros y Hy. apply H. right. exact Hy.
  - destruct (f x); cbn; rewrite ?Eg; apply IH; intros y Hy; apply H; right; exact Hy.
Qed.

Lemma fold_left_inv : forall (f : A -> B -> A) (P : A -> Prop),
  (forall a b, P a -> P (f a b)) -> forall l a, P a -> P (fold_left f l a).
Proof. intros f P H; induction l as [|b l IH]; cbn; auto. Qed.

Lemma fold_left_rel : forall (f : A -> B -> A) (R : A -> A -> Prop),
  (forall a1 a2 b, R a1 a2 -> R (f a1 b) (f a2 b)) ->
  forall l a1 a2, R a1 a2 -> R (fold_left f l a1) (fold_left f l a2).
Proof. intros f R H; induction l as [|b l IH]; cbn; auto. Qed.

Lemma StronglySorted_app_iff : forall (R : A -> A -> Prop) a b,
  StronglySorted R (a ++ b) <->
  StronglySorted R a /\ StronglySorted R b /\ (forall x y, In x a -> In y b -> R x y).
Proof.
  intros R; induction a as [|h a IH]; cbn; intros b.
  - split; [intros H; repeat split; [constructor|exact H|intros ? ? []]|intros (_ & H & _); exact H].
  - split.
    + intros H. apply StronglySorted_inv in H. destruct H as [S F]. apply IH in S. destruct S as (Sa & Sb & Hab).
      rewrite Forall_app in F. destruct F as [Fa Fb]. rewrite Forall_forall in Fb. repeat split; auto.
      * constructor; assumption.
      * intros x y [<-|Hx] Hy; auto.
    + intros (Sa & Sb & Hab). apply StronglySorted_inv in Sa. destruct Sa as [Sa Fa].
      constructor; [apply IH; auto|]. apply Forall_app. split; [exact Fa|]. apply Forall_forall. auto.
Qed.

Lemma StronglySorted_firstn : forall (R : A -> A -> Prop) k l, StronglySorted R l -> StronglySorted R (firstn k l).
Proof.
  intros R k l H. rewrite <- (firstn_skipn k l) in H. apply StronglySorted_app_iff in H. apply H.
Qed.

(* an element of a sorted list is among the first k, or the first k are k elements that all precede it *)
Lemma sorted_firstn_split : forall (R : A -> A -> Prop) k l x, StronglySorted R l -> In x l ->
  In x (firstn k l) \/ (length (firstn k l) = k /\ forall o, In o (firstn k l) -> R o x).
Proof.
  intros R k l x S Hx. rewrite <- (firstn_skipn k l) in S, Hx. apply StronglySorted_app_iff in S.
  destruct S as (_ & _ & H). apply in_app_or in Hx. destruct Hx as [Hx|Hx]; [left; exact Hx|right].
  split; [|intros o Ho; apply H; assumption].
  apply firstn_length_le. destruct (Nat.le_gt_cases k (length l)) as [L|L]; [exact L|].
  rewrite skipn_all2 in Hx by lia. contradiction.
Qed.
End Lists.

Lemma existsb_eqb_In : forall x l, existsb (N.eqb x) l = true <-> In x l.
Proof.
  intros x l. rewrite existsb_exists. split; [intros (y & Hy & E); apply N.eqb_eq in E; subst; exact Hy|].
  intros H. exists x. split; [exact H|apply N.eqb_refl].
Qed.

Lemma sorted_lt_nodup : forall l, StronglySorted N.lt l -> NoDup l.
Proof.
  induction l as [|x r IH]; intros H; [constructor|].
  inversion H as [|? ? Hs Hf]; subst. constructor; auto.
  intros Hin. rewrite Forall_forall in Hf. apply Hf in Hin. lia.
Qed.
