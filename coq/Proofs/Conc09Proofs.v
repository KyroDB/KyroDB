(* The inductive invariant of Model/Conc09.v (writer / snapshot / rotation / compaction protocol, ALL
   schedules, any number of writer and snapshot threads).

   It is phrased over a `view` of the state that forgets the thread list: v_hi = first sequence number
   not yet appended (next_wal_seq, or the base of the writer that has allocated but not yet appended),
   v_tgt = the collection a restart must yield now = store + (appended, not yet applied entries), v_rot
   = the segment file a rotation has created, not yet listed; the rest are fields of the state.
   `GV v`: the global facts; `P v p`: what must hold of a thread in phase p:
     (i)   a captured (last, copy) is consistent: while the manifest's pointer is not newer than
           `last`, replaying the listed segments over `copy`, skipping entries covered by `last`,
           gives v_tgt.  At the capture copy = store and all listed entries are covered: NO writer
           sits between its sequence allocation and its apply, the capture step being enabled only
           without readers of snapshot_lock;
     (ii)  the manifest's pointer only grows (stale check under manifest_lock);
     (iii) replaying the listed segments over the manifest's snapshot gives v_tgt: compaction drops
           only segments all of whose entries are covered, rotation lists the new (empty) segment
           before anything is appended to it. *)
From Coq Require Import List NArith Bool Lia Arith Sorted.
From Kyro Require Import Model.Amap Model.Conc09 Proofs.ListFacts Proofs.Conc09Lemmas.
Import ListNotations.
Open Scope N_scope.

(* phase of the write-gate owner (Idle when the gate is free) *)
Definition cur (st : state) : phase :=
  match st_gate st with Some g => tget (st_thr st) g | None => Idle end.
Definition hi_of (next : N) (p : phase) : N := match p with WAlloc _ base _ => base | _ => next end.
Definition rot_of (p : phase) : option N := match p with WRotFile _ _ nf => Some nf | _ => None end.

Record view := mkV {
  v_hi : N; v_tgt : store; v_man : manifest; v_files : list (N * list entry);
  v_snaps : list (N * (N * store)); v_fid : N; v_next : N; v_rot : option N; v_act : N }.

(* the view when the gate owner is in phase c; the thread list is not read *)
Definition view_with (st : state) (c : phase) : view :=
  mkV (hi_of (st_next st) c) (apply_entries (st_store st) (pend_of c))
      (st_man st) (st_files st) (st_snaps st) (st_fid st) (st_next st) (rot_of c) (st_active st).
Definition view_of (st : state) : view := view_with st (cur st).

Definition listed (v : view) : list entry := flat (v_files v) (m_segs (v_man v)).

(* (iii), and the listed sequence numbers increase strictly *)
Definition Base (v : view) : Prop :=
  StronglySorted N.lt (map e_seq (listed v)) /\
  match m_ptr (v_man v) with
  | None => replay 0 empty (listed v) = v_tgt v
  | Some (pf, ps) => forall docs, fget (v_snaps v) pf = Some (ps, docs) -> replay ps docs (listed v) = v_tgt v
  end.

Record GV (v : view) : Prop := mkGV {
  gv_next : 1 <= v_hi v /\ v_hi v <= v_next v;
  gv_nodup : NoDup (m_segs (v_man v));
  gv_listed : forall f, In f (m_segs (v_man v)) -> (exists es, fget (v_files v) f = Some es) /\ f < v_fid v;
  gv_last : exists pre, m_segs (v_man v) = pre ++ [v_act v];
  gv_bounds : forall f es e, fget (v_files v) f = Some es -> In e es -> 1 <= e_seq e /\ e_seq e < v_hi v;
  gv_ptr : forall pf ps, m_ptr (v_man v) = Some (pf, ps) ->
           ps < v_hi v /\ pf < v_fid v /\ exists docs, fget (v_snaps v) pf = Some (ps, docs);
  gv_base : Base v;
  gv_rot : forall nf, v_rot v = Some nf ->
           fget (v_files v) nf = Some [] /\ nf < v_fid v /\ ~ In nf (m_segs (v_man v))
}.

(* (i): a captured (last, copy) *)
Definition Cand (v : view) (last : N) (copy : store) : Prop :=
  last < v_hi v /\ (ptr_seq (v_man v) <= last -> replay last copy (listed v) = v_tgt v).
Definition FileOk (v : view) (f last : N) (copy : store) : Prop :=
  fget (v_snaps v) f = Some (last, copy) /\ f < v_fid v /\
  (forall pf ps, m_ptr (v_man v) = Some (pf, ps) -> pf <> f).
Definition Dead (v : view) (del : list N) : Prop :=
  forall d, In d del -> ~ In d (m_segs (v_man v)) /\ v_rot v <> Some d /\ d < v_fid v.

Definition P (v : view) (p : phase) : Prop :=
  match p with
  | WAlloc _ base es => 1 <= base /\ (forall e, In e es -> base <= e_seq e /\ e_seq e < v_next v) /\
                        StronglySorted N.lt (map e_seq es)
  | SCaptured last copy => Cand v last copy
  | SFile last copy f => Cand v last copy /\ FileOk v f last copy
  | SLoaded last copy f segs =>
      Cand v last copy /\ FileOk v f last copy /\ segs = m_segs (v_man v) /\ ptr_seq (v_man v) <= last
  | SPtr last f segs => m_ptr (v_man v) = Some (f, last) /\ segs = m_segs (v_man v)
  | SCompacted last f keep del => m_ptr (v_man v) = Some (f, last) /\ keep = m_segs (v_man v) /\ Dead v del
  | SUnlinked last f keep => m_ptr (v_man v) = Some (f, last) /\ keep = m_segs (v_man v)
  | _ => True
  end.

Definition snapfid (p : phase) : option N :=
  match p with SFile _ _ f | SLoaded _ _ f _ => Some f | _ => None end.

(* `cbn` restricted to the projections of a view and of a manifest *)
Ltac vsimpl := cbn [v_hi v_tgt v_man v_files v_snaps v_fid v_next v_rot v_act listed m_segs m_ptr ptr_seq] in *.

Lemma P_transfer : forall v v' q,
  v_next v <= v_next v' ->
  (forall l c, Cand v l c -> Cand v' l c) ->
  (forall f l c, snapfid q = Some f -> FileOk v f l c -> FileOk v' f l c) ->
  (holds_mlock q = true -> v_man v' = v_man v /\ forall del, Dead v del -> Dead v' del) ->
  P v q -> P v' q.
Proof.
  intros v v' q Hn HC HF HM Hq. destruct q; cbn [P snapfid holds_mlock] in *; auto.
  - destruct Hq as (H1 & H2 & H3). split; [exact H1|]. split; [|exact H3]. intros e He. apply H2 in He. lia.
  - destruct Hq as [C F]. split; [auto|eapply HF; eauto].
  - destruct Hq as (C & F & S & L). destruct (HM eq_refl) as [E _]. rewrite E.
    split; [auto|]. split; [eapply HF; eauto|]. split; assumption.
  - destruct (HM eq_refl) as [E _]. rewrite E. exact Hq.
  - destruct Hq as (A & B & D). destruct (HM eq_refl) as [E HD]. rewrite E. auto.
  - destruct (HM eq_refl) as [E _]. rewrite E. exact Hq.
Qed.

Lemma Cand_same : forall v v' l c,
  v_hi v' = v_hi v -> v_tgt v' = v_tgt v -> listed v' = listed v -> ptr_seq (v_man v) <= ptr_seq (v_man v') ->
  Cand v l c -> Cand v' l c.
Proof. intros v v' l c Hh Ht Hl Hp [C1 C2]. split; [rewrite Hh; exact C1|]. intros Hle. rewrite Hl, Ht. apply C2. lia. Qed.

Lemma Base_same : forall v v',
  listed v' = listed v -> v_tgt v' = v_tgt v -> m_ptr (v_man v') = m_ptr (v_man v) ->
  (forall pf ps docs, m_ptr (v_man v) = Some (pf, ps) ->
     fget (v_snaps v') pf = Some (ps, docs) -> fget (v_snaps v) pf = Some (ps, docs)) ->
  Base v -> Base v'.
Proof.
  intros v v' Hl Ht Hp Hs [B1 B2]. unfold Base. rewrite Hl, Ht, Hp. split; [exact B1|].
  destruct (m_ptr (v_man v)) as [[pf ps]|]; [|exact B2]. intros docs Hd. apply B2. eapply Hs; eauto.
Qed.

Lemma P_snapfid_lt : forall v q f, P v q -> snapfid q = Some f -> f < v_fid v.
Proof.
  intros v q f Hq Hf. destruct q; cbn [P snapfid] in *; try discriminate; inversion Hf; subst.
  - destruct Hq as [_ (_ & H & _)]. exact H.
  - destruct Hq as (_ & (_ & H & _) & _). exact H.
Qed.

(* One atomic step seen on the view.  `ok q`: what the step needs to know of another thread q. *)
Definition VStep (v v' : view) (ok : phase -> Prop) (p p1 : phase) : Prop :=
  GV v -> P v p ->
  GV v' /\ P v' p1 /\ ptr_seq (v_man v) <= ptr_seq (v_man v') /\ (forall q, ok q -> P v q -> P v' q).

Definition any (q : phase) : Prop := True.

Lemma VStep_same : forall v p p1, (P v p -> P v p1) -> VStep v v any p p1.
Proof. intros v p p1 H G Pp. split; [exact G|]. split; [auto|]. split; [apply N.le_refl|auto]. Qed.

(* fetch_add *)
Lemma T_alloc : forall v c ops,
  VStep v (mkV (v_hi v) (v_tgt v) (v_man v) (v_files v) (v_snaps v) (v_fid v)
               (v_next v + N.of_nat (length ops)) (v_rot v) (v_act v))
        any (WPre c ops) (WAlloc c (v_next v) (mk_entries (v_next v) ops)).
Proof.
  intros v c ops G _. split; [|split; [|split]].
  - destruct G. constructor; vsimpl; try assumption. lia.
  - cbn [P]. vsimpl. destruct (gv_next _ G). split; [lia|]. split; [|apply mk_entries_sorted].
    intros e He. apply mk_entries_bounds in He. lia.
  - apply N.le_refl.
  - intros q _. apply P_transfer; vsimpl; [lia|auto|auto|intros _; split; [reflexivity|auto]].
Qed.

(* wal.append *)
Lemma T_append : forall v c es,
  VStep v (mkV (v_next v) (apply_entries (v_tgt v) es) (v_man v) (fappend (v_files v) (v_act v) es)
               (v_snaps v) (v_fid v) (v_next v) (v_rot v) (v_act v))
        any (WAlloc c (v_hi v) es) (WAppended c es).
Proof.
  intros v c es G Pp. set (v' := mkV _ _ _ _ _ _ _ _ _).
  destruct Pp as (_ & Hes & Hss).
  destruct G as [[Gn1 Gn2] Gnd Gl [pre Gla] Gb Gp [Gs Gbase] Gr].
  assert (Hact : In (v_act v) (m_segs (v_man v))) by (rewrite Gla; apply in_elt).
  destruct (Gl _ Hact) as [[old Hold] _].
  assert (Hnpre : ~ In (v_act v) pre) by (apply last_notin_pre; rewrite <- Gla; exact Gnd).
  assert (Hlisted : listed v' = listed v ++ es).
  { unfold listed. subst v'. vsimpl. rewrite Gla. eapply flat_fappend; eauto. }
  (* the new entries are above everything a snapshot taken so far covers *)
  assert (Hrep : forall l d, l < v_hi v -> replay l d (listed v) = v_tgt v ->
                 replay l d (listed v') = apply_entries (v_tgt v) es).
  { intros l d Hl Hr. rewrite Hlisted, replay_app, Hr. apply replay_uncovered.
    intros e He. apply covered_above. apply Hes in He. lia. }
  split; [|split; [exact I|split; [apply N.le_refl|]]].
  - constructor; subst v'; vsimpl; eauto.
    + lia.
    + intros f Hf. destruct (Gl f Hf) as [[es0 He0] Hlt]. split; [|exact Hlt].
      rewrite (fget_fappend _ _ _ _ _ Hold). destruct (N.eqb (v_act v) f); eauto.
    + intros f es0 e Hf He. rewrite (fget_fappend _ _ _ _ _ Hold) in Hf.
      destruct (N.eqb (v_act v) f) eqn:E.
      * inversion Hf; subst es0. apply in_app_or in He. destruct He as [He|He].
        -- destruct (Gb _ _ _ Hold He). lia.
        -- apply Hes in He. lia.
      * destruct (Gb _ _ _ Hf He). lia.
    + intros pf ps Hp. destruct (Gp pf ps Hp) as [H1 [H2 H3]]. repeat split; auto. lia.
    + unfold Base. vsimpl. split.
      * rewrite Hlisted, map_app. apply StronglySorted_app_iff. split; [exact Gs|]. split; [exact Hss|].
        intros x y Hx Hy. apply in_map_iff in Hx, Hy. destruct Hx as [e1 [E1 I1]]. destruct Hy as [e2 [E2 I2]]. subst x y.
        apply In_flat in I1. destruct I1 as [g [es1 [_ [F1 F2]]]]. destruct (Gb _ _ _ F1 F2). apply Hes in I2. lia.
      * destruct (m_ptr (v_man v)) as [[pf ps]|] eqn:Ep.
        -- intros docs Hd. destruct (Gp pf ps eq_refl) as [H1 _]. apply (Hrep ps docs); auto.
        -- apply (Hrep 0 empty); [lia|exact Gbase].
    + intros nf Hnf. destruct (Gr nf Hnf) as [H1 [H2 H3]]. repeat split; auto.
      rewrite (fget_fappend _ _ _ _ _ Hold). destruct (N.eqb_spec (v_act v) nf) as [<-|_]; [tauto|exact H1].
  - intros q _. apply P_transfer.
    + apply N.le_refl.
    + intros l c0 [C1 C2]. split; [subst v'; vsimpl; lia|]. intros Hle. apply Hrep; auto.
    + intros f l c0 _ F. exact F.
    + intros _. split; [reflexivity|]. intros del D. exact D.
Qed.

(* WalWriter::create for the next segment *)
Lemma T_rotcreate : forall v c es,
  VStep v (mkV (v_hi v) (v_tgt v) (v_man v) (fset (v_files v) (v_fid v) []) (v_snaps v) (v_fid v + 1)
               (v_next v) (Some (v_fid v)) (v_act v))
        any (WAppended c es) (WRotFile c es (v_fid v)).
Proof.
  intros v c es G _. set (v' := mkV _ _ _ _ _ _ _ _ _).
  destruct G as [[Gn1 Gn2] Gnd Gl [pre Gla] Gb Gp Gbase Gr].
  assert (Hlisted : listed v' = listed v).
  { unfold listed. subst v'. vsimpl. apply flat_ext. intros f Hf. apply fget_fset_other.
    destruct (Gl f Hf) as [_ Hlt]. lia. }
  split; [|split; [exact I|split; [apply N.le_refl|]]].
  - constructor; subst v'; vsimpl; eauto.
    + intros f Hf. destruct (Gl f Hf) as [[es0 He0] Hlt]. split; [|lia].
      rewrite fget_fset_other by lia. eauto.
    + intros f es0 e Hf He. rewrite fget_fset in Hf. destruct (N.eqb (v_fid v) f).
      * inversion Hf; subst es0. destruct He.
      * eapply Gb; eauto.
    + intros pf ps Hp. destruct (Gp pf ps Hp) as [H1 [H2 H3]]. repeat split; auto. lia.
    + apply (Base_same v); [exact Hlisted|reflexivity|reflexivity|auto|exact Gbase].
    + intros nf Hnf. inversion Hnf; subst nf. rewrite fget_fset_same. repeat split; [lia|].
      intro Hin. destruct (Gl _ Hin) as [_ Hlt]. lia.
  - intros q _. apply P_transfer.
    + apply N.le_refl.
    + intros l c0. apply Cand_same; auto. apply N.le_refl.
    + intros f l c0 _ [F1 [F2 F3]]. repeat split; auto. subst v'; vsimpl. lia.
    + intros _. split; [reflexivity|]. intros del HD d0 Hd. destruct (HD d0 Hd) as [D1 [D2 D3]].
      subst v'; vsimpl. repeat split; auto; [|lia]. intro Heq. inversion Heq. lia.
Qed.

(* rotate: manifest_lock { load; push; save }; switch the writer *)
Lemma T_rotman : forall v c es nf, v_rot v = Some nf ->
  VStep v (mkV (v_hi v) (v_tgt v) (mkMan (m_ptr (v_man v)) (m_segs (v_man v) ++ [nf])) (v_files v) (v_snaps v)
               (v_fid v) (v_next v) None nf)
        (fun q => holds_mlock q = false) (WRotFile c es nf) (WLogged c es).
Proof.
  intros v c es nf Hrot G _. set (v' := mkV _ _ _ _ _ _ _ _ _).
  destruct G as [[Gn1 Gn2] Gnd Gl [pre Gla] Gb Gp Gbase Gr].
  destruct (Gr nf Hrot) as [R1 [R2 R3]].
  assert (Hlisted : listed v' = listed v).
  { unfold listed. subst v'. vsimpl. rewrite flat_app. unfold flat at 2. cbn [map concat].
    unfold content. rewrite R1. rewrite !app_nil_r. reflexivity. }
  split; [|split; [exact I|split; [apply N.le_refl|]]].
  - constructor; subst v'; vsimpl; eauto.
    + apply NoDup_snoc; assumption.
    + intros f Hf. apply in_app_or in Hf. destruct Hf as [Hf|[Hf|[]]]; [apply Gl; exact Hf|subst f; eauto].
    + apply (Base_same v); [exact Hlisted|reflexivity|reflexivity|auto|exact Gbase].
    + intros x Hx. discriminate.
  - intros q Hm. apply P_transfer.
    + apply N.le_refl.
    + intros l c0. apply Cand_same; auto. apply N.le_refl.
    + intros f l c0 _ F. exact F.
    + intros E. rewrite E in Hm. discriminate.
Qed.

(* Snapshot::save *)
Lemma T_savefile : forall v last copy,
  VStep v (mkV (v_hi v) (v_tgt v) (v_man v) (v_files v) (fset (v_snaps v) (v_fid v) (last, copy)) (v_fid v + 1)
               (v_next v) (v_rot v) (v_act v))
        any (SCaptured last copy) (SFile last copy (v_fid v)).
Proof.
  intros v last copy G HC. set (v' := mkV _ _ _ _ _ _ _ _ _). cbn [P] in HC.
  assert (HC' : forall l c, Cand v l c -> Cand v' l c) by (intros l c; apply Cand_same; auto; apply N.le_refl).
  destruct G as [[Gn1 Gn2] Gnd Gl [pre Gla] Gb Gp Gbase Gr].
  split; [|split; [|split; [apply N.le_refl|]]].
  - constructor; subst v'; vsimpl; eauto.
    + intros f Hf. destruct (Gl f Hf) as [E Hlt]. split; [exact E|lia].
    + intros pf ps Hp. destruct (Gp pf ps Hp) as [H1 [H2 [docs H3]]]. repeat split; auto; [lia|].
      exists docs. rewrite fget_fset_other by lia. exact H3.
    + apply (Base_same v); [reflexivity|reflexivity|reflexivity| |exact Gbase].
      intros pf ps docs Hp Hs. destruct (Gp pf ps Hp) as [_ [H2 _]]. vsimpl.
      rewrite fget_fset_other in Hs by lia. exact Hs.
    + intros nf Hnf. destruct (Gr nf Hnf) as [H1 [H2 H3]]. repeat split; auto. lia.
  - cbn [P]. split; [auto|]. unfold FileOk. subst v'; vsimpl. rewrite fget_fset_same.
    split; [reflexivity|]. split; [lia|]. intros pf ps Hp. destruct (Gp pf ps Hp) as [_ [H2 _]]. lia.
  - intros q _. apply P_transfer.
    + apply N.le_refl.
    + exact HC'.
    + intros f l c _ [F1 [F2 F3]]. unfold FileOk. subst v'; vsimpl.
      rewrite fget_fset_other by lia. repeat split; auto. lia.
    + intros _. split; [reflexivity|]. intros del HD d0 Hd. destruct (HD d0 Hd) as [D1 [D2 D3]].
      subst v'; vsimpl. repeat split; auto. lia.
Qed.

(* stale snapshot: remove_file(new snapshot) *)
Lemma T_stale : forall v f last copy,
  VStep v (mkV (v_hi v) (v_tgt v) (v_man v) (v_files v) (fdel (v_snaps v) f) (v_fid v)
               (v_next v) (v_rot v) (v_act v))
        (fun q => snapfid q <> Some f) (SFile last copy f) Idle.
Proof.
  intros v f last copy G [_ [F1 [F2 F3]]]. set (v' := mkV _ _ _ _ _ _ _ _ _).
  destruct G as [[Gn1 Gn2] Gnd Gl [pre Gla] Gb Gp Gbase Gr].
  split; [|split; [exact I|split; [apply N.le_refl|]]].
  - constructor; subst v'; vsimpl; eauto.
    + intros pf ps Hp. destruct (Gp pf ps Hp) as [H1 [H2 [docs H3]]]. repeat split; auto.
      exists docs. rewrite fget_fdel_other; [exact H3|]. intro; subst. eapply F3; eauto.
    + apply (Base_same v); [reflexivity|reflexivity|reflexivity| |exact Gbase].
      intros pf ps docs Hp Hs. vsimpl. rewrite fget_fdel in Hs. destruct (N.eqb f pf); [discriminate|exact Hs].
  - intros q Hne. apply P_transfer.
    + apply N.le_refl.
    + intros l c C. exact C.
    + intros f' l c Hf' [A1 [A2 A3]]. unfold FileOk. subst v'; vsimpl.
      rewrite fget_fdel_other by (intro; subst; tauto). repeat split; auto.
    + intros _. split; [reflexivity|]. intros del D. exact D.
Qed.

(* manifest.save with the new pointer and the full list *)
Lemma T_ptr : forall v last copy f segs,
  VStep v (mkV (v_hi v) (v_tgt v) (mkMan (Some (f, last)) segs) (v_files v) (v_snaps v) (v_fid v)
               (v_next v) (v_rot v) (v_act v))
        (fun q => snapfid q <> Some f /\ holds_mlock q = false) (SLoaded last copy f segs) (SPtr last f segs).
Proof.
  intros v last copy f segs G Hp. set (v' := mkV _ _ _ _ _ _ _ _ _). cbn [P] in Hp.
  destruct Hp as [[C1 C2] [[F1 [F2 F3]] [Hs Hle]]].
  destruct G as [[Gn1 Gn2] Gnd Gl [pre Gla] Gb Gp [Gs Gbase] Gr].
  assert (Hlisted : listed v' = listed v) by (unfold listed; subst v' segs; reflexivity).
  split; [|split; [|split]].
  - constructor; subst v'; vsimpl; subst segs; eauto.
    + intros pf ps Hp. inversion Hp; subst pf ps. repeat split; auto. eauto.
    + split; [exact Gs|]. vsimpl. intros docs Hsn. rewrite F1 in Hsn. inversion Hsn; subst docs. apply C2. exact Hle.
  - cbn [P]. subst v'; vsimpl. auto.
  - subst v'; vsimpl. exact Hle.
  - intros q [Hne Hm]. apply P_transfer.
    + apply N.le_refl.
    + intros l c. apply Cand_same; auto.
    + intros f' l c Hf' [A1 [A2 A3]]. unfold FileOk. subst v'; vsimpl. repeat split; auto.
      intros pf ps Hpp. inversion Hpp; subst. congruence.
    + intros E. rewrite E in Hm. discriminate.
Qed.

(* compact_old_wal_segments: decide, publish the pruned list (saved only when something is dropped;
   otherwise the list on disk is the pruned one already) *)
Lemma T_compact : forall v last f segs keep del,
  compact (v_files v) last segs = (keep, del) ->
  VStep v (mkV (v_hi v) (v_tgt v)
               (match del with [] => v_man v | _ :: _ => mkMan (Some (f, last)) keep end)
               (v_files v) (v_snaps v) (v_fid v) (v_next v) (v_rot v) (v_act v))
        (fun q => holds_mlock q = false) (SPtr last f segs) (SCompacted last f keep del).
Proof.
  intros v last f segs keep del Hc G [Hptr Hs]. subst segs.
  destruct G as [[Gn1 Gn2] Gnd Gl [pre Gla] Gb Gp [Gs Gbase] Gr].
  rewrite Gla, compact_snoc in Hc. injection Hc as <- <-.
  set (live := filter (seg_live (v_files v) last) pre). set (dead := filter (seg_dead (v_files v) last) pre).
  assert (Hman : match dead with [] => v_man v | _ :: _ => mkMan (Some (f, last)) (live ++ [v_act v]) end
                 = mkMan (Some (f, last)) (live ++ [v_act v])).
  { destruct dead eqn:Ed; [|reflexivity]. unfold live. rewrite live_all; auto.
    - destruct (v_man v) as [p s]. cbn [m_ptr m_segs] in *. subst. reflexivity.
    - intros g Hg. apply Gl. rewrite Gla. apply in_or_app. left. exact Hg. }
  rewrite Hman. set (v' := mkV _ _ _ _ _ _ _ _ _).
  assert (Hsub : forall x, In x (live ++ [v_act v]) -> In x (m_segs (v_man v))).
  { intros x Hx. rewrite Gla. apply in_app_or in Hx as [Hx|Hx]; apply in_or_app; [left; eapply filter_In; exact Hx|right; exact Hx]. }
  assert (Hrep : forall l d, last <= l -> replay l d (listed v') = replay l d (listed v)).
  { intros l d Hl. unfold listed. subst v'; vsimpl. rewrite Gla, !flat_app, !replay_app. unfold live.
    rewrite live_replay by exact Hl. reflexivity. }
  rewrite Gla in Gnd. pose proof (NoDup_remove_1 _ _ _ Gnd) as Hndp. rewrite app_nil_r in Hndp.
  split; [|split; [|split]].
  - constructor; subst v'; vsimpl; eauto.
    + apply NoDup_snoc; [apply NoDup_filter; exact Hndp|].
      intros Hin. apply filter_In in Hin as [Hin _]. exact (last_notin_pre _ _ Gnd Hin).
    + intros pf ps Hp. inversion Hp; subst pf ps. apply Gp. exact Hptr.
    + split.
      * change (StronglySorted N.lt (map e_seq (flat (v_files v) (live ++ [v_act v])))).
        apply flat_filter_sorted. rewrite <- Gla. exact Gs.
      * vsimpl. intros docs Hsn. rewrite (Hrep last docs) by lia. rewrite Hptr in Gbase. auto.
    + intros nf Hnf. destruct (Gr nf Hnf) as [H1 [H2 H3]]. repeat split; auto.
  - cbn [P]. subst v'; vsimpl. split; [reflexivity|]. split; [reflexivity|].
    intros d0 Hd. apply filter_In in Hd as [Hd Hdead].
    assert (Hd0 : In d0 (m_segs (v_man v))) by (rewrite Gla; apply in_or_app; left; exact Hd).
    split; [|split].
    + intros Hk. apply in_app_or in Hk as [Hk|[<-|[]]].
      * apply filter_In in Hk as [_ Hk]. rewrite (seg_dead_not_live _ _ _ Hdead) in Hk. discriminate.
      * exact (last_notin_pre _ _ Gnd Hd).
    + intro Hr. destruct (Gr d0 Hr) as [_ [_ H3]]. auto.
    + apply Gl. exact Hd0.
  - subst v'; vsimpl. unfold ptr_seq. rewrite Hptr. apply N.le_refl.
  - intros q Hm. apply P_transfer.
    + apply N.le_refl.
    + intros l c [A1 A2]. split; [exact A1|]. intros Hl. subst v'. vsimpl.
      rewrite (Hrep l c Hl). apply A2. unfold ptr_seq. rewrite Hptr. exact Hl.
    + intros f' l c _ [A1 [A2 A3]]. unfold FileOk. subst v'; vsimpl. repeat split; auto.
      intros pf ps Hpp. inversion Hpp; subst. eapply A3; eauto.
    + intros E. rewrite E in Hm. discriminate.
Qed.

(* remove_file for every segment to delete *)
Lemma T_unlink : forall v last f keep del,
  VStep v (mkV (v_hi v) (v_tgt v) (v_man v) (unlink_all (v_files v) del) (v_snaps v) (v_fid v)
               (v_next v) (v_rot v) (v_act v))
        (fun q => holds_mlock q = false) (SCompacted last f keep del) (SUnlinked last f keep).
Proof.
  intros v last f keep del G [Hptr [Hk HD]]. set (v' := mkV _ _ _ _ _ _ _ _ _).
  destruct G as [[Gn1 Gn2] Gnd Gl [pre Gla] Gb Gp Gbase Gr].
  assert (Hnot : forall g, In g (m_segs (v_man v)) -> ~ In g del).
  { intros g Hg Hd. destruct (HD g Hd) as [D1 _]. tauto. }
  assert (Hlisted : listed v' = listed v).
  { unfold listed. subst v'; vsimpl. apply flat_ext. intros g Hg. apply fget_unlink_notin. auto. }
  split; [|split; [|split; [apply N.le_refl|]]].
  - constructor; subst v'; vsimpl; eauto.
    + intros g Hg. destruct (Gl g Hg) as [E Hlt]. split; [|exact Hlt].
      rewrite fget_unlink_notin by auto. exact E.
    + intros g es e Hg He. apply fget_unlink_some in Hg. eauto.
    + apply (Base_same v); [exact Hlisted|reflexivity|reflexivity|auto|exact Gbase].
    + intros nf Hnf. destruct (Gr nf Hnf) as [H1 [H2 H3]]. repeat split; auto.
      rewrite fget_unlink_notin; [exact H1|]. intro Hd. destruct (HD nf Hd) as [_ [D2 _]]. tauto.
  - cbn [P]. subst v'; vsimpl. auto.
  - intros q Hm. apply P_transfer.
    + apply N.le_refl.
    + intros l c. apply Cand_same; auto. apply N.le_refl.
    + intros f' l c _ F. exact F.
    + intros E. rewrite E in Hm. discriminate.
Qed.

(* the final manifest.save rewrites what is there *)
Lemma T_final : forall v last f keep,
  VStep v (mkV (v_hi v) (v_tgt v) (mkMan (Some (f, last)) keep) (v_files v) (v_snaps v) (v_fid v)
               (v_next v) (v_rot v) (v_act v))
        any (SUnlinked last f keep) SSaved.
Proof.
  intros v last f keep G Pp.
  assert (E : mkMan (Some (f, last)) keep = v_man v).
  { destruct Pp as [Pp Ps]. destruct (v_man v) as [p s]. cbn in Pp, Ps. subst. reflexivity. }
  rewrite E. destruct v. exact (VStep_same _ (SUnlinked last f keep) SSaved (fun _ => I) G Pp).
Qed.

(* the capture: snapshot_lock.write() { last := next - 1; copy := store } with no writer in flight *)
Lemma T_capture : forall v, v_hi v = v_next v -> VStep v v any SWant (SCaptured (v_next v - 1) (v_tgt v)).
Proof.
  intros v Hhi G _. split; [exact G|]. split; [|split; [apply N.le_refl|auto]].
  destruct G as [[Gn1 Gn2] _ _ _ Gb _ _ _]. cbn [P]. split; [lia|]. intros _.
  apply replay_covered_all. apply forallb_forall. intros e He.
  apply In_flat in He. destruct He as [g [es [H1 [H2 H3]]]]. destruct (Gb _ _ _ H2 H3) as [B1 B2].
  apply covered_spec. lia.
Qed.

Definition Link (h : phase -> bool) (o : option nat) (thr : list (nat * phase)) : Prop :=
  (forall t, h (tget thr t) = true -> o = Some t) /\ (forall t, o = Some t -> h (tget thr t) = true).

Lemma link_none : forall h thr t, Link h None thr -> h (tget thr t) = false.
Proof. intros h thr t [L1 _]. destruct (h (tget thr t)) eqn:E; [apply L1 in E; discriminate|reflexivity]. Qed.

Lemma link_other : forall h t thr t', Link h (Some t) thr -> t' <> t -> h (tget thr t') = false.
Proof.
  intros h t thr t' [L1 _] Hne. destruct (h (tget thr t')) eqn:E; [|reflexivity].
  apply L1 in E. inversion E. subst. tauto.
Qed.

(* what a step of thread t (phase p to p1) does to the owner o of a lock held in the phases h *)
Inductive Handover (h : phase -> bool) (o o' : option nat) (t : nat) (p p1 : phase) : Prop :=
| HKeep : o' = o -> h p1 = h p -> Handover h o o' t p p1
| HAcq : o = None -> o' = Some t -> h p1 = true -> Handover h o o' t p p1
| HRel : h p = true -> o' = None -> h p1 = false -> Handover h o o' t p p1.

Lemma link_handover : forall h o o' thr t p1,
  Link h o thr -> Handover h o o' t (tget thr t) p1 -> Link h o' (tset thr t p1).
Proof.
  intros h o o' thr t p1 L [-> He| -> -> Hp|Hp -> Hp1]; split; intros t' H; rewrite ?tget_tset in *;
    destruct (Nat.eqb_spec t t') as [E|Hne]; try subst t'; try discriminate.
  - rewrite He in H. apply (proj1 L); exact H.
  - apply (proj1 L); exact H.
  - rewrite He. apply (proj2 L); exact H.
  - apply (proj2 L); exact H.
  - reflexivity.
  - rewrite (link_none _ _ t' L) in H. discriminate.
  - exact Hp.
  - injection H as E. congruence.
  - congruence.
  - apply (proj1 L) in Hp. subst o. rewrite (link_other _ _ _ t' L) in H by auto. discriminate.
Qed.

Definition Distinct (thr : list (nat * phase)) : Prop :=
  forall t1 t2 f, t1 <> t2 -> snapfid (tget thr t1) = Some f -> snapfid (tget thr t2) = Some f -> False.

Record Inv (st : state) : Prop := mkInv {
  inv_gate : Link holds_gate (st_gate st) (st_thr st);
  inv_mlock : Link holds_mlock (st_mlock st) (st_thr st);
  inv_gv : GV (view_of st);
  inv_p : forall t, P (view_of st) (tget (st_thr st) t);
  inv_dist : Distinct (st_thr st)
}.

(* the gate owner's phase before and after a step of a thread that goes from p to p1 *)
Definition cur_before (p c : phase) : phase := if holds_gate p then p else c.
Definition cur_after (p p1 c : phase) : phase :=
  if holds_gate p1 then p1 else if holds_gate p then Idle else c.

Lemma cur_step : forall st st1 t p1,
  Link holds_gate (st_gate st) (st_thr st) -> st_thr st1 = st_thr st ->
  Handover holds_gate (st_gate st) (st_gate st1) t (tget (st_thr st) t) p1 ->
  cur st = cur_before (tget (st_thr st) t) (cur st) /\
  cur (set_thr st1 t p1) = cur_after (tget (st_thr st) t) p1 (cur st).
Proof.
  intros st st1 t p1 L Ht H. unfold cur_before, cur_after, cur, set_thr. cbn [st_gate st_thr]. rewrite Ht.
  destruct L as [L1 L2].
  destruct H as [-> He| Hn -> Hp|Hp -> Hp1].
  - rewrite He. destruct (holds_gate (tget (st_thr st) t)) eqn:E.
    + rewrite (L1 t E), tget_tset_same. auto.
    + split; [reflexivity|]. destruct (st_gate st) as [g|]; [|reflexivity].
      rewrite tget_tset_other; [reflexivity|]. intros <-. rewrite (L2 t eq_refl) in E. discriminate.
  - rewrite Hp, Hn, tget_tset_same. destruct (holds_gate (tget (st_thr st) t)) eqn:E; [|auto].
    apply L1 in E. congruence.
  - rewrite Hp, Hp1, (L1 t Hp). auto.
Qed.

(* what the locks and Distinct say about a thread other than the stepping one (phase p) *)
Definition others_ok (st : state) (p q : phase) : Prop :=
  ((st_mlock st = None \/ holds_mlock p = true) -> holds_mlock q = false) /\
  (forall f, snapfid p = Some f -> snapfid q <> Some f).

Lemma phase_step_inv : forall st st1 t p p1 ok,
  Inv st -> tget (st_thr st) t = p -> st_thr st1 = st_thr st ->
  Handover holds_gate (st_gate st) (st_gate st1) t p p1 ->
  Handover holds_mlock (st_mlock st) (st_mlock st1) t p p1 ->
  VStep (view_with st (cur_before p (cur st))) (view_with st1 (cur_after p p1 (cur st))) ok p p1 ->
  (forall q, others_ok st p q -> ok q) ->
  (forall f, snapfid p1 = Some f -> snapfid p = Some f \/ st_fid st <= f) ->
  Inv (set_thr st1 t p1) /\ ptr_seq (st_man st) <= ptr_seq (st_man st1).
Proof.
  intros st st1 t p p1 ok HI Hp Ht Hg Hm HV Hok Hf. subst p.
  destruct (cur_step st st1 t p1 (inv_gate _ HI) Ht Hg) as [Eb Ea].
  pose proof (inv_gv _ HI) as G. pose proof (inv_p _ HI) as Pall. unfold view_of in G, Pall.
  rewrite Eb in G, Pall.
  destruct (HV G (Pall t)) as (G' & Pn & Hptr & St).
  assert (Hothers : forall t', t' <> t -> others_ok st (tget (st_thr st) t) (tget (st_thr st) t')).
  { intros t' Hne. split.
    - intros [Hn|Hh].
      + pose proof (inv_mlock _ HI) as L. rewrite Hn in L. apply (link_none _ _ t' L).
      + pose proof (inv_mlock _ HI) as L. rewrite (proj1 L t Hh) in L. apply (link_other _ _ _ t' L Hne).
    - intros f H1 H2. exact (inv_dist _ HI t t' f (not_eq_sym Hne) H1 H2). }
  split; [|exact Hptr].
  constructor; unfold view_of; cbn [set_thr st_thr st_gate st_mlock]; rewrite ?Ht.
  - apply link_handover with (o := st_gate st); [exact (inv_gate _ HI)|exact Hg].
  - apply link_handover with (o := st_mlock st); [exact (inv_mlock _ HI)|exact Hm].
  - rewrite Ea. exact G'.
  - rewrite Ea. intros t'. rewrite tget_tset. destruct (Nat.eqb_spec t t') as [<-|Hne]; [exact Pn|].
    apply St; [apply Hok, Hothers; auto|apply Pall].
  - intros t1 t2 f Hne H1 H2. rewrite tget_tset in H1, H2.
    assert (Hnew : forall t', t' <> t -> snapfid p1 = Some f -> snapfid (tget (st_thr st) t') = Some f -> False).
    { intros t' Hne' Hp1 Hq. destruct (Hf f Hp1) as [Hold|Hfresh].
      - exact (proj2 (Hothers t' Hne') f Hold Hq).
      - pose proof (P_snapfid_lt _ _ _ (Pall t') Hq) as Hlt. cbn in Hlt. lia. }
    destruct (Nat.eqb_spec t t1) as [<-|N1]; destruct (Nat.eqb_spec t t2) as [<-|N2].
    + tauto.
    + eapply Hnew; eauto.
    + eapply Hnew; eauto.
    + exact (inv_dist _ HI t1 t2 f Hne H1 H2).
Qed.

Lemma view_step_inv : forall st st1 t p p1,
  Inv st -> tget (st_thr st) t = p -> st_thr st1 = st_thr st ->
  st_gate st1 = st_gate st -> st_mlock st1 = st_mlock st ->
  holds_gate p1 = holds_gate p -> holds_mlock p1 = holds_mlock p -> snapfid p1 = None ->
  VStep (view_with st (cur_before p (cur st))) (view_with st1 (cur_after p p1 (cur st))) any p p1 ->
  Inv (set_thr st1 t p1) /\ ptr_seq (st_man st) <= ptr_seq (st_man st1).
Proof.
  intros st st1 t p p1 HI Hp Ht Hg Hm Hhg Hhm Hs HV.
  apply (phase_step_inv _ _ _ _ _ any HI Hp Ht); [now apply HKeep|now apply HKeep|exact HV|intros; exact I|].
  intros f Hf. rewrite Hs in Hf. discriminate.
Qed.

Lemma quiet_step_inv : forall st st1 t p p1,
  Inv st -> tget (st_thr st) t = p -> st_thr st1 = st_thr st ->
  st_gate st1 = st_gate st -> st_mlock st1 = st_mlock st ->
  holds_gate p1 = holds_gate p -> holds_mlock p1 = holds_mlock p -> snapfid p1 = None ->
  view_with st1 (cur_after p p1 (cur st)) = view_with st (cur_before p (cur st)) ->
  P (view_with st (cur_before p (cur st))) p1 ->
  Inv (set_thr st1 t p1) /\ ptr_seq (st_man st) <= ptr_seq (st_man st1).
Proof.
  intros st st1 t p p1 HI Hp Ht Hg Hm Hhg Hhm Hs Hv Pn. apply (view_step_inv _ _ _ _ _ HI Hp); auto.
  rewrite Hv. apply VStep_same. intros _. exact Pn.
Qed.

Lemma no_readers_gate_free : forall st, Link holds_gate (st_gate st) (st_thr st) -> no_readers st = true -> st_gate st = None.
Proof.
  intros st [L1 L2] H. destruct (st_gate st) as [g|] eqn:E; [|reflexivity].
  pose proof (L2 g eq_refl) as Hg. unfold no_readers in H.
  pose proof (forallb_tget (fun p => negb (holds_snapR p)) (st_thr st) eq_refl H g) as Hr.
  cbn beta in Hr. destruct (tget (st_thr st) g); cbn in Hg, Hr; discriminate.
Qed.

Definition distinct_ids (c : cfg) : Prop := forall n, c_clock c n = n.

(* Each phase either leaves the view alone (quiet_step_inv, or VStep_same when a lock changes hands)
   or is one of the view transitions above. *)
Lemma tstep_inv : forall c st t r, distinct_ids c ->
  Inv st -> tstep c st t (tget (st_thr st) t) = Some r ->
  let '(st1, p1, _) := r in Inv (set_thr st1 t p1) /\ ptr_seq (st_man st) <= ptr_seq (st_man st1).
Proof.
  intros c st t r Hclk HI H.
  destruct st as [nx sto slots cnt act bytes files snaps man fid gate mlock thr].
  cbn [st_thr] in H.
  destruct (tget thr t) eqn:Hp; cbn [tstep] in H.
  - discriminate.
  - injection H as <-.
    apply (quiet_step_inv _ _ _ _ _ HI Hp); reflexivity.
  - destruct gate as [g|]; [discriminate|].
    destruct (is_ins c0 && (c_cap c <=? slots)).
    + injection H as <-. apply (quiet_step_inv _ _ _ _ _ HI Hp); reflexivity.
    + destruct (preflight sto c0) as [|o ops] eqn:Epre; injection H as <-.
      * apply (quiet_step_inv _ _ _ _ _ HI Hp); reflexivity.
      * (* takes the gate; nothing appended yet *)
        apply (phase_step_inv _ _ _ _ _ any HI Hp); [reflexivity|now apply HAcq|now apply HKeep| |intros; exact I|discriminate].
        apply VStep_same. intros _. exact I.
  - destruct (negb retried && (0 <? tomb)).
    + destruct (no_readers _); [|discriminate].
      destruct (0 <? slots - size sto); injection H as <-;
        apply (quiet_step_inv _ _ _ _ _ HI Hp); reflexivity.
    + injection H as <-. apply (quiet_step_inv _ _ _ _ _ HI Hp); reflexivity.
  - injection H as <-.
    apply (view_step_inv _ _ _ _ _ HI Hp); try reflexivity. apply T_alloc.
  - injection H as <-.
    apply (view_step_inv _ _ _ _ _ HI Hp); try reflexivity. apply T_append.
  - destruct (negb (c_max_wal c =? 0) && (c_max_wal c <=? bytes)).
    + rewrite Hclk in H. injection H as <-.
      apply (view_step_inv _ _ _ _ _ HI Hp); try reflexivity. apply T_rotcreate.
    + injection H as <-. apply (quiet_step_inv _ _ _ _ _ HI Hp); reflexivity.
  - (* WRotFile -> WLogged: manifest_lock is free, so nobody is between load and save *)
    destruct mlock as [m|]; [discriminate|]. injection H as <-.
    apply (phase_step_inv _ _ _ _ _ (fun q => holds_mlock q = false) HI Hp);
      [reflexivity|now apply HKeep|now apply HKeep| | |discriminate].
    + apply T_rotman. reflexivity.
    + intros q [Hm _]. apply Hm. left. reflexivity.
  - destruct (is_ins c0) eqn:Eins; injection H as <-;
      apply (quiet_step_inv _ _ _ _ _ HI Hp); try reflexivity;
      unfold view_with; cbn [pend_of cur_after cur_before holds_gate]; rewrite Eins; reflexivity.
  - destruct (is_ins c0) eqn:Eins; injection H as <-;
      apply (quiet_step_inv _ _ _ _ _ HI Hp); try reflexivity;
      unfold view_with; cbn [pend_of cur_after cur_before holds_gate]; rewrite Eins; reflexivity.
  - (* WBoth -> WGateRel: everything appended has been applied *)
    injection H as <-.
    apply (phase_step_inv _ _ _ _ _ any HI Hp); [reflexivity|now apply HRel|now apply HKeep| |intros; exact I|discriminate].
    apply VStep_same. intros _. exact I.
  - injection H as <-. destruct due; apply (quiet_step_inv _ _ _ _ _ HI Hp); reflexivity.
  - (* SWant -> SCaptured: no reader of snapshot_lock, hence no gate owner *)
    destruct (no_readers _) eqn:Hnr; [|discriminate]. injection H as <-.
    pose proof (no_readers_gate_free _ (inv_gate _ HI) Hnr) as Hg0. cbn [st_gate] in Hg0. subst gate.
    apply (view_step_inv _ _ _ _ _ HI Hp); try reflexivity.
    exact (T_capture (view_with (mkSt nx sto slots cnt act bytes files snaps man fid None mlock thr) Idle) eq_refl).
  - rewrite Hclk in H. injection H as <-.
    apply (phase_step_inv _ _ _ _ _ any HI Hp); [reflexivity|now apply HKeep|now apply HKeep| |intros; exact I|].
    + apply T_savefile.
    + intros f Hf. right. injection Hf as <-. apply N.le_refl.
  - destruct mlock as [m|]; [discriminate|].
    destruct (last <? ptr_seq man) eqn:Est; injection H as <-.
    + apply (phase_step_inv _ _ _ _ _ (fun q => snapfid q <> Some fid0) HI Hp);
        [reflexivity|now apply HKeep|now apply HKeep| | |discriminate].
      * apply T_stale.
      * intros q [_ Hd]. apply Hd. reflexivity.
    + (* takes manifest_lock; the stale check has just passed *)
      apply (phase_step_inv _ _ _ _ _ any HI Hp); [reflexivity|now apply HKeep|now apply HAcq| |intros; exact I|].
      * apply VStep_same. intros [PC PF]. split; [exact PC|]. split; [exact PF|]. split; [reflexivity|].
        apply N.ltb_ge in Est. exact Est.
      * intros f Hf. left. exact Hf.
  - injection H as <-.
    apply (phase_step_inv _ _ _ _ _ (fun q => snapfid q <> Some fid0 /\ holds_mlock q = false) HI Hp);
      [reflexivity|now apply HKeep|now apply HKeep| | |discriminate].
    + apply T_ptr.
    + intros q [Hm Hd]. split; [apply Hd; reflexivity|apply Hm; right; reflexivity].
  - destruct (compact files last segs) as [keep del] eqn:Ec. injection H as <-.
    apply (phase_step_inv _ _ _ _ _ (fun q => holds_mlock q = false) HI Hp);
      [reflexivity|now apply HKeep|now apply HKeep| | |discriminate].
    + apply T_compact. exact Ec.
    + intros q [Hm _]. apply Hm. right. reflexivity.
  - injection H as <-.
    apply (phase_step_inv _ _ _ _ _ (fun q => holds_mlock q = false) HI Hp);
      [reflexivity|now apply HKeep|now apply HKeep| | |discriminate].
    + apply T_unlink.
    + intros q [Hm _]. apply Hm. right. reflexivity.
  - injection H as <-.
    apply (view_step_inv _ _ _ _ _ HI Hp); try reflexivity. apply T_final.
  - injection H as <-.
    apply (phase_step_inv _ _ _ _ _ any HI Hp); [reflexivity|now apply HKeep|now apply HRel| |intros; exact I|discriminate].
    apply VStep_same. intros _. exact I.
Qed.

Lemma step_inv : forall c st e st', distinct_ids c -> Inv st -> cstep c st e = Some st' ->
  Inv st' /\ ptr_seq (st_man st) <= ptr_seq (st_man st').
Proof.
  intros c st e st' Hclk HI H. unfold cstep, cstep_l in H.
  assert (Hstart : forall t p1, is_idle (tget (st_thr st) t) = true ->
            holds_gate p1 = false -> holds_mlock p1 = false -> snapfid p1 = None -> P (view_of st) p1 ->
            Inv (set_thr st t p1) /\ ptr_seq (st_man st) <= ptr_seq (st_man st)).
  { intros t p1 Hid Hg Hm Hs Pn.
    assert (Hidle : tget (st_thr st) t = Idle) by (destruct (tget (st_thr st) t); try discriminate; reflexivity).
    apply (quiet_step_inv st st t Idle p1 HI Hidle); auto. unfold cur_after. rewrite Hg. reflexivity. }
  destruct e as [t cl|t|t].
  - destruct (is_idle (tget (st_thr st) t)) eqn:Hid; [|discriminate]. injection H as <-.
    apply Hstart; auto. exact I.
  - destruct (is_idle (tget (st_thr st) t)) eqn:Hid; [|discriminate]. injection H as <-.
    apply Hstart; auto. exact I.
  - destruct (tstep c st t (tget (st_thr st) t)) as [[[st1 p1] ls]|] eqn:Hs; [|discriminate].
    injection H as <-. exact (tstep_inv _ _ _ _ Hclk HI Hs).
Qed.

Lemma run_inv : forall c sched st st', distinct_ids c -> Inv st -> crun c st sched = Some st' ->
  Inv st' /\ ptr_seq (st_man st) <= ptr_seq (st_man st').
Proof.
  intros c sched st st' Hclk. revert st st'.
  induction sched as [|e r IH]; intros st st' HI H; cbn [crun] in H.
  - injection H as <-. split; [exact HI|apply N.le_refl].
  - destruct (cstep c st e) as [s1|] eqn:E; [|discriminate].
    destruct (step_inv _ _ _ _ Hclk HI E) as [HI1 L1]. destruct (IH _ _ HI1 H) as [HI' L2].
    split; [exact HI'|lia].
Qed.

Lemma init_inv : Inv init.
Proof.
  constructor.
  - split; intros t H; cbn in H; discriminate.
  - split; intros t H; cbn in H; discriminate.
  - change (GV (mkV 1 empty (mkMan None [1]) [(1, [])] [] 2 1 None 1)).
    constructor; unfold Base, listed; cbn -[N.eqb].
    + lia.
    + constructor; [intros []|constructor].
    + intros f [Hf|[]]. subst f. split; [exists []; reflexivity|lia].
    + exists []. reflexivity.
    + intros f es e Hf He. destruct (1 =? f); [inversion Hf; subst; destruct He|discriminate].
    + intros pf ps Hp. discriminate.
    + split; [constructor|reflexivity].
    + intros nf Hn. discriminate.
  - intros t. cbn. exact I.
  - intros t1 t2 f _ H. cbn in H. discriminate.
Qed.

Definition reachable (c : cfg) (st : state) : Prop := exists sched, crun c init sched = Some st.

Lemma reachable_inv : forall c st, distinct_ids c -> reachable c st -> Inv st.
Proof. intros c st Hclk [sched H]. exact (proj1 (run_inv _ _ _ _ Hclk init_inv H)). Qed.

(* what a restart yields at ANY moment: the store plus the entries appended but not yet applied *)
Definition in_flight (st : state) : list entry := pend_of (cur st).

Lemma recover_eq : forall st, Inv st ->
  let es := flat (st_files st) (m_segs (st_man st)) in
  read_segs (st_files st) (m_segs (st_man st)) = Some es /\
  StronglySorted N.lt (map e_seq es) /\
  exists last docs, recover (disk_of st) = Some (replay last docs es) /\
                    replay last docs es = apply_entries (st_store st) (in_flight st).
Proof.
  intros st HI es. destruct (inv_gv _ HI) as [_ _ Gl _ _ Gp [Gs Gbase] _].
  unfold view_of, view_with, listed in *. vsimpl.
  assert (Hr : read_segs (st_files st) (m_segs (st_man st)) = Some es)
    by (apply read_segs_flat; intros f Hf; apply Gl; exact Hf).
  split; [exact Hr|]. split; [exact Gs|].
  unfold recover, disk_of. cbn [d_man d_snaps d_files]. rewrite Hr.
  destruct (m_ptr (st_man st)) as [[pf ps]|] eqn:Ep.
  - destruct (Gp pf ps eq_refl) as [_ [_ [docs Hd]]]. rewrite Hd, N.ltb_irrefl. cbn [andb].
    exists ps, docs. split; [reflexivity|]. apply Gbase. exact Hd.
  - rewrite N.ltb_irrefl. cbn [andb]. exists 0, empty. split; [reflexivity|exact Gbase].
Qed.

Lemma quiescent_no_flight : forall st, all_done st = true -> in_flight st = [].
Proof.
  intros st H. unfold in_flight, cur. destruct (st_gate st) as [g|]; [|reflexivity].
  pose proof (forallb_tget is_idle (st_thr st) eq_refl H g) as Hi.
  destruct (tget (st_thr st) g); try discriminate; reflexivity.
Qed.
