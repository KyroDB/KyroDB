(* Tenant noninterference for Model/Server.v by unwinding.
   A-view of a state: tenant A's documents (the sub-list of the engine map whose global id carries
   tenant index A), A's quota count, A's usage counters.  The hot-tier list is NOT part of the view
   (only FlushHotTier's count reads it, and that count is excluded from the statement).
   A handler of tenant t changes the state only by updates that belong to t (`owned`); such updates keep `wf`
   and, for t <> A, the A-view. *)
From Coq Require Import List NArith ZArith Bool String Ascii Lia.
From Kyro Require Import Model.Server Proofs.ListFacts Proofs.ServerProofs.
Import ListNotations.
Open Scope N_scope.

Lemma dget_in : forall ds g d, dget ds g = Some d -> In (g, d) ds.
Proof.
  induction ds as [|[g' d'] r IH]; intros g d H; cbn in H; [discriminate|].
  destruct (g =? g') eqn:E; [apply N.eqb_eq in E; inversion H; subst; left; reflexivity | right; apply IH; exact H].
Qed.
Lemma in_dset : forall ds g d g' d', In (g', d') (dset ds g d) -> (g' = g /\ d' = d) \/ In (g', d') ds.
Proof.
  induction ds as [|[g0 d0] r IH]; intros g d g' d' H; cbn in H.
  - destruct H as [H|[]]. inversion H. left. auto.
  - destruct (g =? g0).
    + destruct H as [H|H]; [inversion H; left; auto | right; right; exact H].
    + destruct H as [H|H]; [right; left; exact H|]. apply IH in H. destruct H as [H|H]; [left; exact H | right; right; exact H].
Qed.
Lemma in_nodup_N : forall l x, In x (nodup_N l) -> In x l.
Proof.
  induction l as [|y l IH]; intros x H; cbn in H; [contradiction|].
  destruct (existsb (N.eqb y) l); [right; apply IH; exact H|].
  destruct H as [H|H]; [left; exact H | right; apply IH; exact H].
Qed.
Lemma map_ids_tenant : forall t ids gs, map_ids t ids = Some gs -> forall g, In g gs -> tenant_of g = t.
Proof.
  induction ids as [|i r IH]; intros gs H g Hg; cbn in H.
  - inversion H; subst. contradiction.
  - destruct (to_global_doc_id t i) as [g0|] eqn:E; [|discriminate].
    destruct (map_ids t r) as [gs0|]; [|discriminate]. inversion H; subst.
    destruct Hg as [Hg|Hg]; [subst; eapply tenant_of_to_global; eauto | eapply IH; eauto].
Qed.
Lemma zipwith_ext : forall A B C (f f' : A -> B -> C) a b,
  (forall x y, In y b -> f x y = f' x y) -> zipwith f a b = zipwith f' a b.
Proof.
  induction a as [|x a IH]; intros [|y b] H; cbn; try reflexivity.
  rewrite (H x y (or_introl eq_refl)). f_equal. apply IH. intros. apply H. right. assumption.
Qed.

Lemma enforce_quota_inv : forall ki s g b s1, enforce_quota ki s g = Some (b, s1) ->
  s1 = s \/ s1 = set_count s (k_tenant ki) (get_count s (k_tenant ki) + 1).
Proof.
  intros ki s g b s1 H. unfold enforce_quota in H. destruct (dexists (st_docs s) g); [inversion H; auto|].
  destruct (k_maxvec ki <=? get_count s (k_tenant ki)); [discriminate|]. inversion H. auto.
Qed.
Lemma dremove_filter : forall ds g, dremove ds g = List.filter (fun p => negb (g =? fst p)) ds.
Proof. reflexivity. Qed.
Lemma bl_insert_eq : forall cfg ds a b p, bl_insert cfg (ds, (a, b)) p =
  if engine_insert_ok cfg (d_vec (snd p)) then (dset ds (fst p) (snd p), (a + 1, b)) else (ds, (a, b + 1)).
Proof. reflexivity. Qed.

Section NI.
Variable idx_str : N -> str.
Variable score : Z -> Z.
Hypothesis idx_inj : forall a b, idx_str a = idx_str b -> a = b.
Variable cfg : config.
Variable A : N.
Notation step := (step idx_str score cfg).
Notation handle := (handle idx_str score cfg).

Definition isA (p : N * doc) : bool := tenant_of (fst p) =? A.
Definition viewD (ds : docs) : docs := List.filter isA ds.
Definition equivA (s1 s2 : state) : Prop :=
  viewD (st_docs s1) = viewD (st_docs s2)
  /\ nget (st_counts s1) A = nget (st_counts s2) A
  /\ nget (st_usage s1) A = nget (st_usage s2) A.
Definition wf (s : state) : Prop :=
  forall g d, In (g, d) (st_docs s) -> mget (d_meta d) K_TIDX = Some (idx_str (tenant_of g)).

Lemma equivA_refl : forall s, equivA s s.
Proof. intro s. repeat split. Qed.
Lemma equivA_sym : forall s1 s2, equivA s1 s2 -> equivA s2 s1.
Proof. intros s1 s2 [H1 [H2 H3]]. repeat split; congruence. Qed.
Lemma equivA_trans : forall s1 s2 s3, equivA s1 s2 -> equivA s2 s3 -> equivA s1 s3.
Proof. intros s1 s2 s3 [H1 [H2 H3]] [H4 [H5 H6]]. repeat split; congruence. Qed.

Lemma viewD_cons : forall g d r, viewD ((g, d) :: r) = if tenant_of g =? A then (g, d) :: viewD r else viewD r.
Proof. reflexivity. Qed.
Lemma dget_cons : forall g' d' r g, dget ((g', d') :: r) g = if g =? g' then Some d' else dget r g.
Proof. reflexivity. Qed.
Lemma dset_cons : forall g' d' r g d, dset ((g', d') :: r) g d = if g =? g' then (g, d) :: r else (g', d') :: dset r g d.
Proof. reflexivity. Qed.
Lemma dget_view : forall ds g, tenant_of g = A -> dget (viewD ds) g = dget ds g.
Proof.
  induction ds as [|[g' d'] r IH]; intros g Hg; [reflexivity|].
  rewrite viewD_cons, dget_cons. destruct (tenant_of g' =? A) eqn:E.
  - rewrite dget_cons. destruct (g =? g'); [reflexivity | apply IH; exact Hg].
  - destruct (g =? g') eqn:E2; [|apply IH; exact Hg].
    apply N.eqb_eq in E2. subst g'. apply N.eqb_neq in E. contradiction.
Qed.
Lemma view_dset : forall ds g d, viewD (dset ds g d) = if tenant_of g =? A then dset (viewD ds) g d else viewD ds.
Proof.
  induction ds as [|[g' d'] r IH]; intros g d.
  - cbn [dset]. rewrite viewD_cons. destruct (tenant_of g =? A); reflexivity.
  - rewrite dset_cons, (viewD_cons g' d' r). destruct (g =? g') eqn:E.
    + apply N.eqb_eq in E. subst g'. rewrite viewD_cons.
      destruct (tenant_of g =? A); [rewrite dset_cons, N.eqb_refl|]; reflexivity.
    + rewrite viewD_cons, IH. destruct (tenant_of g' =? A); destruct (tenant_of g =? A); try reflexivity.
      rewrite dset_cons, E. reflexivity.
Qed.
Lemma view_filter : forall f ds, viewD (List.filter f ds) = List.filter f (viewD ds).
Proof. intros. unfold viewD. apply filter_comm. Qed.
Lemma view_filter_out : forall f ds, (forall p, In p ds -> isA p = true -> f p = true) -> viewD (List.filter f ds) = viewD ds.
Proof. intros. unfold viewD. apply filter_absorb. assumption. Qed.
Lemma dget_view_eq : forall d1 d2 g, viewD d1 = viewD d2 -> tenant_of g = A -> dget d1 g = dget d2 g.
Proof. intros d1 d2 g H Hg. rewrite <- (dget_view d1 g Hg), <- (dget_view d2 g Hg), H. reflexivity. Qed.
Lemma dexists_view_eq : forall d1 d2 g, viewD d1 = viewD d2 -> tenant_of g = A -> dexists d1 g = dexists d2 g.
Proof. intros d1 d2 g H Hg. unfold dexists. rewrite (dget_view_eq d1 d2 g H Hg). reflexivity. Qed.
Lemma dget_equiv : forall s1 s2 g, equivA s1 s2 -> tenant_of g = A -> dget (st_docs s1) g = dget (st_docs s2) g.
Proof. intros s1 s2 g [H _]. apply dget_view_eq. exact H. Qed.
Lemma get_count_equiv : forall s1 s2, equivA s1 s2 -> get_count s1 A = get_count s2 A.
Proof. intros s1 s2 [_ [H _]]. unfold get_count. rewrite H. reflexivity. Qed.

Lemma eq_set_docs : forall s1 s2 d1 d2, equivA s1 s2 -> viewD d1 = viewD d2 -> equivA (set_docs s1 d1) (set_docs s2 d2).
Proof. intros s1 s2 d1 d2 [_ [H2 H3]] V. repeat split; assumption. Qed.
Lemma eq_set_docs_dset : forall s1 s2 g d, equivA s1 s2 ->
  equivA (set_docs s1 (dset (st_docs s1) g d)) (set_docs s2 (dset (st_docs s2) g d)).
Proof. intros s1 s2 g d H. apply eq_set_docs; [exact H|]. rewrite !view_dset, (proj1 H). reflexivity. Qed.
Lemma eq_set_docs_filter : forall s1 s2 f, equivA s1 s2 ->
  equivA (set_docs s1 (List.filter f (st_docs s1))) (set_docs s2 (List.filter f (st_docs s2))).
Proof. intros s1 s2 f H. apply eq_set_docs; [exact H|]. rewrite !view_filter, (proj1 H). reflexivity. Qed.
Lemma eq_set_count : forall s1 s2 t c, equivA s1 s2 -> equivA (set_count s1 t c) (set_count s2 t c).
Proof. intros s1 s2 t c [H1 [H2 H3]]. repeat split; cbn; try assumption. rewrite !nget_nset, H2. reflexivity. Qed.
Lemma eq_dec_count : forall s1 s2 n, equivA s1 s2 -> equivA (dec_count s1 A n) (dec_count s2 A n).
Proof.
  intros s1 s2 n H. unfold dec_count. destruct (n =? 0); [exact H|].
  rewrite (proj1 (proj2 H)). destruct (nget (st_counts s2) A); [apply eq_set_count|]; exact H.
Qed.
Lemma eq_upd_usage : forall s1 s2 f, equivA s1 s2 -> equivA (upd_usage s1 A f) (upd_usage s2 A f).
Proof. intros s1 s2 f [H1 [H2 H3]]. unfold upd_usage. repeat split; cbn; try assumption. rewrite H3, !nget_nset_same. reflexivity. Qed.
Lemma eq_rec_query : forall s1 s2 n, equivA s1 s2 -> equivA (rec_query s1 A n) (rec_query s2 A n).
Proof. intros. unfold rec_query. destruct (n =? 0); [assumption | apply eq_upd_usage; assumption]. Qed.
Lemma eq_rec_insert : forall s1 s2 n b, equivA s1 s2 -> equivA (rec_insert s1 A n b) (rec_insert s2 A n b).
Proof. intros. unfold rec_insert. destruct (n =? 0); [assumption | apply eq_upd_usage; assumption]. Qed.
Lemma eq_rec_delete : forall s1 s2 n b, equivA s1 s2 -> equivA (rec_delete s1 A n b) (rec_delete s2 A n b).
Proof. intros. unfold rec_delete. destruct (n =? 0); [assumption | apply eq_upd_usage; assumption]. Qed.
Lemma eq_set_hot : forall s1 s2 h1 h2, equivA s1 s2 -> equivA (set_hot s1 h1) (set_hot s2 h2).
Proof. intros s1 s2 h1 h2 H. exact H. Qed.
Lemma eq_hot_add : forall s1 s2 g, equivA s1 s2 -> equivA (hot_add s1 g) (hot_add s2 g).
Proof.
  intros s1 s2 g H. unfold hot_add.
  destruct (existsb (N.eqb g) (st_hot s1)); destruct (existsb (N.eqb g) (st_hot s2)); exact H.
Qed.
Lemma eq_hot_remove : forall s1 s2 gs1 gs2, equivA s1 s2 -> equivA (hot_remove s1 gs1) (hot_remove s2 gs2).
Proof. intros s1 s2 gs1 gs2 H. exact H. Qed.
Hint Resolve eq_rec_query eq_rec_insert eq_rec_delete eq_dec_count eq_set_count eq_hot_add eq_hot_remove eq_set_hot
     eq_set_docs_dset eq_set_docs_filter : eqv.

Lemma docs_set_count : forall s t c, st_docs (set_count s t c) = st_docs s. Proof. reflexivity. Qed.
Lemma docs_set_hot : forall s h, st_docs (set_hot s h) = st_docs s. Proof. reflexivity. Qed.
Lemma docs_set_docs : forall s d, st_docs (set_docs s d) = d. Proof. reflexivity. Qed.
Lemma docs_hot_add : forall s g, st_docs (hot_add s g) = st_docs s.
Proof. intros. unfold hot_add. destruct (existsb _ _); reflexivity. Qed.
Lemma docs_hot_remove : forall s g, st_docs (hot_remove s g) = st_docs s. Proof. reflexivity. Qed.
Lemma docs_dec_count : forall s t n, st_docs (dec_count s t n) = st_docs s.
Proof. intros. unfold dec_count. destruct (n =? 0); [reflexivity|]. destruct (nget _ _); reflexivity. Qed.
Lemma docs_rec_query : forall s t n, st_docs (rec_query s t n) = st_docs s.
Proof. intros. unfold rec_query. destruct (n =? 0); reflexivity. Qed.
Lemma docs_rec_insert : forall s t n b, st_docs (rec_insert s t n b) = st_docs s.
Proof. intros. unfold rec_insert. destruct (n =? 0); reflexivity. Qed.
Lemma docs_rec_delete : forall s t n b, st_docs (rec_delete s t n b) = st_docs s.
Proof. intros. unfold rec_delete. destruct (n =? 0); reflexivity. Qed.

(* Updates that belong to tenant t.  Removal is stated on the stored index, not on the id bits: BatchDelete by
   filter selects by the stored string, and `wf` turns that into id bits only where idx_str is injective
   (owned_other); wf preservation does not need it. *)
Inductive owned (t : N) (s0 : state) : state -> Prop :=
| ow_refl : owned t s0 s0
| ow_count s c : owned t s0 s -> owned t s0 (set_count s t c)
| ow_usage s f : owned t s0 s -> owned t s0 (upd_usage s t f)
| ow_hot s h : owned t s0 s -> owned t s0 (set_hot s h)
| ow_dset s g d : owned t s0 s -> tenant_of g = t -> mget (d_meta d) K_TIDX = Some (idx_str t) ->
    owned t s0 (set_docs s (dset (st_docs s) g d))
| ow_filter s f : owned t s0 s ->
    (forall p, In p (st_docs s) -> f p = false -> mget (d_meta (snd p)) K_TIDX = Some (idx_str t)) ->
    owned t s0 (set_docs s (List.filter f (st_docs s))).

Lemma owned_wf : forall t s0 s, owned t s0 s -> wf s0 -> wf s.
Proof.
  induction 1 as [|s c _ IH|s f _ IH|s h _ IH|s g d _ IH Hg Hd|s f _ IH _]; intro W; try exact (IH W).
  - exact W.
  - intros g' d' Hin. apply in_dset in Hin. destruct Hin as [[-> ->]|Hin]; [rewrite Hg; exact Hd | exact (IH W _ _ Hin)].
  - intros g' d' Hin. apply filter_In in Hin. exact (IH W _ _ (proj1 Hin)).
Qed.
Lemma owned_other : forall t s0 s, t <> A -> owned t s0 s -> wf s0 -> equivA s0 s.
Proof.
  intros t s0 s Ht O W. induction O as [|s c O IH|s f O IH|s h O IH|s g d O IH Hg Hd|s f O IH Hf].
  - apply equivA_refl.
  - destruct IH as [H1 [H2 H3]]. repeat split; cbn; try assumption. rewrite nget_nset_other by congruence. exact H2.
  - destruct IH as [H1 [H2 H3]]. repeat split; cbn; try assumption. rewrite nget_nset_other by congruence. exact H3.
  - exact IH.
  - destruct IH as [H1 [H2 H3]]. repeat split; cbn; try assumption. rewrite view_dset.
    replace (tenant_of g =? A) with false by (symmetry; apply N.eqb_neq; congruence). exact H1.
  - destruct IH as [H1 [H2 H3]]. repeat split; cbn; try assumption. rewrite view_filter_out; [exact H1|].
    intros [g d] Hin HA. destruct (f (g, d)) eqn:E; [reflexivity|]. exfalso. apply Ht, idx_inj.
    pose proof (Hf _ Hin E) as K. cbn [snd] in K. rewrite (owned_wf _ _ _ O W g d Hin) in K. apply N.eqb_eq in HA. cbn [fst] in HA.
    rewrite HA in K. congruence.
Qed.

Lemma ow_rec_query : forall t s0 s n, owned t s0 s -> owned t s0 (rec_query s t n).
Proof. intros. unfold rec_query. destruct (n =? 0); [assumption | apply ow_usage; assumption]. Qed.
Lemma ow_rec_insert : forall t s0 s n b, owned t s0 s -> owned t s0 (rec_insert s t n b).
Proof. intros. unfold rec_insert. destruct (n =? 0); [assumption | apply ow_usage; assumption]. Qed.
Lemma ow_rec_delete : forall t s0 s n b, owned t s0 s -> owned t s0 (rec_delete s t n b).
Proof. intros. unfold rec_delete. destruct (n =? 0); [assumption | apply ow_usage; assumption]. Qed.
Lemma ow_dec_count : forall t s0 s n, owned t s0 s -> owned t s0 (dec_count s t n).
Proof. intros. unfold dec_count. destruct (n =? 0); [assumption|]. destruct (nget _ _); [apply ow_count|]; assumption. Qed.
Lemma ow_hot_add : forall t s0 s g, owned t s0 s -> owned t s0 (hot_add s g).
Proof. intros. unfold hot_add. destruct (existsb _ _); [assumption | apply ow_hot; assumption]. Qed.
Lemma ow_hot_remove : forall t s0 s gs, owned t s0 s -> owned t s0 (hot_remove s gs).
Proof. intros. apply ow_hot. assumption. Qed.
Hint Resolve ow_refl ow_rec_query ow_rec_insert ow_rec_delete ow_dec_count ow_count ow_hot_add ow_hot_remove ow_hot : ow.

Lemma mget_mextend_keep : forall new old k v,
  (forall v', In (k, v') new -> v' = v) -> mget old k = Some v -> mget (mextend old new) k = Some v.
Proof.
  unfold mextend. induction new as [|[k0 v0] r IH]; intros old k v Hall Hold; cbn; [exact Hold|].
  apply IH; [intros v' Hv'; apply Hall; right; exact Hv'|].
  destruct (str_eqb k k0) eqn:E.
  - apply str_eqb_eq in E. subst k0. rewrite (Hall v0 (or_introl eq_refl)). apply mget_mset_same.
  - rewrite mget_mset_other; [exact Hold|]. apply str_eqb_neq in E. exact E.
Qed.
Lemma keep_reserved_tidx : forall e m v, mget e K_TIDX = Some v ->
  mget (keep_reserved e m) K_TIDX = Some v /\ (forall v', In (K_TIDX, v') (keep_reserved e m) -> v' = v).
Proof.
  intros e m v He. destruct K_distinct as [D1 [D2 D3]]. unfold keep_reserved. rewrite He. split.
  - destruct (mget e K_NS); [rewrite mget_mset_other by congruence|]; apply mget_mset_same.
  - (* no entry under K_TIDX survives strip_reserved; of the three mset only the middle one writes there *)
    assert (Pset : forall m0 k w, (k = K_TIDX -> w = v) ->
              (forall x, In (K_TIDX, x) m0 -> x = v) -> forall x, In (K_TIDX, x) (mset m0 k w) -> x = v).
    { intros m0 k w Hk P x Hx. apply in_mset in Hx. destruct Hx as [[Ek ->]|Hx]; [apply Hk; congruence | exact (P x Hx)]. }
    assert (P1 : forall x, In (K_TIDX, x) (strip_reserved m) -> x = v).
    { intros x Hx. apply in_strip_reserved in Hx. destruct (proj1 Hx). right. left. reflexivity. }
    destruct (mget e K_NS); [apply Pset; [congruence|]|].
    all: apply Pset; [reflexivity|].
    all: destruct (mget e K_TID); [apply Pset; [congruence|]|]; exact P1.
Qed.

(* BatchDelete by filter selects only documents stamped with the caller's index *)
Lemma combined_filter_tidx : forall ki f ns m,
  fmatches (combined_filter idx_str ki f ns) m = true -> mget m K_TIDX = Some (idx_str (k_tenant ki)).
Proof.
  intros ki f ns m H. unfold combined_filter in H. cbn [fmatches forallb] in H. apply andb_true_iff, proj1 in H.
  destruct (mget m K_TIDX); [apply str_eqb_eq in H; congruence | discriminate].
Qed.

Section AnyTenant.
Variable ki : keyinfo.
Notation t := (k_tenant ki).

(* the byte counts of Insert and of a BulkInsert item agree when the engine accepts *)
Lemma h_insert_state : forall s acc it,
  fst (h_insert idx_str cfg ki s it) = fst (bulk_insert_item idx_str cfg ki (s, acc) it).
Proof.
  intros s [a b] it. unfold h_insert, bulk_insert_item.
  destruct (i_id it <? 1); [reflexivity|]. destruct (i_vec it) eqn:Ev; [reflexivity|]. rewrite <- Ev.
  destruct (to_global_doc_id t (i_id it)); [|reflexivity]. destruct (enforce_quota ki s n) as [[already s1]|]; [|reflexivity].
  unfold engine_insert_ok. destruct (len (i_vec it) =? c_dim cfg) eqn:E; [|reflexivity].
  apply N.eqb_eq in E. rewrite E. destruct already; reflexivity.
Qed.
Lemma item_owned : forall s0 acc it, owned t s0 (fst acc) -> owned t s0 (fst (bulk_insert_item idx_str cfg ki acc it)).
Proof.
  intros s0 [s [a b]] it H. unfold bulk_insert_item. cbn [fst] in *.
  destruct (i_id it <? 1); [exact H|]. destruct (i_vec it) eqn:Ev; [exact H|]. rewrite <- Ev.
  destruct (to_global_doc_id t (i_id it)) as [g|] eqn:Eg; [|exact H].
  destruct (enforce_quota ki s g) as [[already s1]|] eqn:Eq; [|exact H].
  assert (H1 : owned t s0 s1) by (destruct (enforce_quota_inv _ _ _ _ _ Eq) as [->| ->]; auto with ow).
  destruct (engine_insert_ok cfg (i_vec it)); [|destruct already; cbn [fst]; auto with ow].
  set (s2 := hot_add (set_docs s1 _) g). assert (H2 : owned t s0 s2).
  { apply ow_hot_add, ow_dset; [exact H1 | exact (tenant_of_to_global _ _ _ Eg) | apply stored_meta_reserved]. }
  destruct already; cbn [fst]; auto with ow.
Qed.

Definition batch_ok (p : N * doc) : Prop :=
  tenant_of (fst p) = t /\ mget (d_meta (snd p)) K_TIDX = Some (idx_str t).
Lemma bl_validate_inv : forall its acc, Forall batch_ok (fst acc) ->
  Forall batch_ok (fst (fold_left (bl_validate idx_str ki) its acc)).
Proof.
  intro its. apply (fold_left_inv _ (fun acc => Forall batch_ok (fst acc))). intros [ds bad] it H. unfold bl_validate. cbn [fst] in *.
  destruct (i_id it <? 1); [exact H|]. destruct (i_vec it) eqn:Ev; [exact H|]. rewrite <- Ev.
  destruct (to_global_doc_id t (i_id it)) as [g|] eqn:Eg; [|exact H].
  cbn [fst]. apply Forall_app. split; [exact H|]. constructor; [|constructor].
  split; [exact (tenant_of_to_global _ _ _ Eg) | apply stored_meta_reserved].
Qed.
(* `set_hot s (st_hot s)` is `set_docs s (st_docs s)` written with a constructor of `owned` *)
Lemma bl_insert_owned : forall s0 batch s acc, Forall batch_ok batch -> owned t s0 s ->
  owned t s0 (set_docs s (fst (fold_left (bl_insert cfg) batch (st_docs s, acc)))).
Proof.
  intros s0. induction batch as [|[g d] r IH]; intros s [a b] HF H; cbn [fold_left].
  - exact (ow_hot _ _ _ (st_hot s) H).
  - inversion HF as [|? ? [Hg Hd] HF']; subst. rewrite bl_insert_eq. cbn [fst snd].
    destruct (engine_insert_ok cfg (d_vec d)); [|apply IH; assumption].
    exact (IH (set_docs s (dset (st_docs s) g d)) _ HF' (ow_dset _ _ _ g d H Hg Hd)).
Qed.
Lemma finish_owned : forall s gs, (forall g, In g gs -> idx_str (tenant_of g) = idx_str t) -> wf s ->
  owned t s (fst (finish_batch_delete cfg ki s gs)).
Proof.
  intros s gs Hgs W. unfold finish_batch_delete, engine_batch_delete. cbn [fst].
  apply ow_rec_delete, ow_dec_count, ow_hot_remove, ow_filter; [apply ow_refl|].
  intros [g d] Hin E. apply negb_false_iff, existsb_eqb_In, in_nodup_N, Hgs in E. cbn [fst snd] in *.
  rewrite <- E. exact (W g d Hin).
Qed.

Lemma handle_owned : forall s r, wf s -> owned t s (fst (handle ki s r)).
Proof.
  intros s r W. destruct r; cbn [Server.handle].
  - rewrite (h_insert_state s (0, 0)). apply item_owned, ow_refl.
  - unfold h_bulk_insert.
    pose proof (fold_left_inv _ (fun acc => owned t s (fst acc)) (item_owned s) its (s, (0, 0)) (ow_refl _ _)) as O.
    destruct (fold_left _ its _) as [s' [a b]]. exact O.
  - unfold h_bulk_load.
    pose proof (bl_validate_inv its ([], 0) (Forall_nil _)) as HF.
    destruct (fold_left (bl_validate idx_str ki) its ([], 0)) as [batch bad]. cbn [fst] in HF.
    destruct batch as [|p0 batch']; [apply ow_refl|]. set (batch := p0 :: batch') in *.
    destruct (negb _ && _); [apply ow_refl|].
    set (s1 := if len _ =? 0 then s else _).
    assert (H1 : owned t s s1) by (unfold s1; destruct (len _ =? 0); auto with ow).
    pose proof (bl_insert_owned s batch s1 (0, 0) HF H1) as O.
    destruct (fold_left (bl_insert cfg) batch (st_docs s1, (0, 0))) as [ds [a b]]. cbn [fst] in *.
    destruct (len _ =? 0); auto with ow.
  - rewrite h_query_eq. destruct (id =? 0); [apply ow_refl|]. destruct (to_global_doc_id _ _); cbn [fst]; auto with ow.
  - unfold h_bulk_query. destruct (map_ids _ _); cbn [fst]; auto with ow.
  - unfold h_search. destruct (search_core _ _ _ _ _ _); cbn [fst]; auto with ow.
  - unfold h_bulk_search. cbn [fst]. auto with ow.
  - unfold h_update. destruct (id =? 0); [apply ow_refl|]. destruct (to_global_doc_id _ _) as [g|] eqn:Eg; [|apply ow_refl].
    destruct (dget (st_docs s) g) as [d|] eqn:Ed; [|apply ow_refl].
    destruct (negb _); [apply ow_refl|]. destruct (negb _); [apply ow_refl|]. cbn [fst].
    pose proof (tenant_of_to_global _ _ _ Eg) as Hg.
    apply ow_dset; [apply ow_refl | exact Hg |]. cbn [d_meta].
    pose proof (W g d (dget_in _ _ _ Ed)) as Hd. rewrite Hg in Hd.
    destruct (keep_reserved_tidx (d_meta d) m _ Hd) as [K1 K2].
    destruct merge; [apply mget_mextend_keep; assumption | exact K1].
  - unfold h_delete. destruct (id <? 1); [apply ow_refl|]. destruct (to_global_doc_id _ _) as [g|] eqn:Eg; [|apply ow_refl].
    destruct (dget (st_docs s) g); [|apply ow_refl]. destruct (negb _); [apply ow_refl|]. destruct (negb _); [apply ow_refl|].
    cbn [fst]. rewrite dremove_filter. apply ow_rec_delete, ow_dec_count, ow_hot_remove, ow_filter; [apply ow_refl|].
    intros [g' d'] Hin E. apply negb_false_iff, N.eqb_eq in E. cbn [fst snd] in *. subst g'.
    rewrite <- (tenant_of_to_global _ _ _ Eg). exact (W g d' Hin).
  - unfold h_batch_delete_ids. destruct (map_ids t ids) as [gs|] eqn:Em; [|apply ow_refl].
    apply finish_owned; [|exact W]. intros g Hg. apply filter_In in Hg.
    rewrite (map_ids_tenant _ _ _ Em g (proj1 Hg)). reflexivity.
  - unfold h_batch_delete_filter. apply finish_owned; [|exact W]. intros g Hg.
    apply in_map_iff in Hg. destruct Hg as [[g' d] [<- Hg]]. apply filter_In in Hg. destruct Hg as [Hin Hm]. cbn [fst snd] in *.
    apply combined_filter_tidx in Hm. rewrite (W g' d Hin) in Hm. congruence.
  - apply ow_refl.
  - destruct force; cbn [fst]; auto with ow.
  - unfold h_usage. destruct scope as [sc|]; [|apply ow_refl].
    destruct (str_eq_nocase sc _); [apply ow_refl|]. destruct (str_eq_nocase sc _); [|apply ow_refl].
    destruct (k_admin ki); apply ow_refl.
Qed.

Lemma wf_handle : forall s r, wf s -> wf (fst (handle ki s r)).
Proof. intros s r W. exact (owned_wf _ _ _ (handle_owned s r W) W). Qed.
Lemma handle_other : t <> A -> forall s r, wf s -> equivA s (fst (handle ki s r)).
Proof. intros Ht s r W. exact (owned_other _ _ _ Ht (handle_owned s r W) W). Qed.
End AnyTenant.

Lemma wf_step : forall s c, wf s -> wf (fst (step s c)).
Proof using Type. intros s c H. unfold Server.step. destruct (auth cfg (c_key c)); [apply wf_handle; exact H | exact H]. Qed.
Lemma wf_init : wf init_state.
Proof. intros g d []. Qed.

(* What is compared: everything, except that a Search-family answer is reduced to its status
   (hit list and total_found dropped: they depend on other tenants, see search_count_refuted) and
   FlushHotTier's documents_flushed is dropped (process-wide, see flush_count_refuted). *)
Definition proj_sres (x : sres) : sres := match x with SErr c => SErr c | SOk _ _ => SOk [] 0 end.
Definition proj (r : resp) : resp :=
  match r with
  | OkSearch _ _ => OkSearch [] 0
  | OkBulkSearch rs => OkBulkSearch (map proj_sres rs)
  | OkFlush _ => OkFlush 0
  | r => r
  end.

Section Same.
Variable ki : keyinfo.
Hypothesis HkA : k_tenant ki = A.
Hypothesis Hadm : k_admin ki = false.

Lemma search_core_shape : forall d1 d2 r,
  proj_sres (search_core idx_str score cfg ki d1 r) = proj_sres (search_core idx_str score cfg ki d2 r).
Proof.
  intros. unfold search_core. destruct (search_plan r); [|reflexivity].
  destruct (negb (len (s_q r) =? c_dim cfg)); reflexivity.
Qed.
Lemma is_sok_proj : forall x, is_sok x = is_sok (proj_sres x).
Proof. destruct x; reflexivity. Qed.
Lemma sok_count : forall d1 d2 rs,
  len (List.filter is_sok (map (search_core idx_str score cfg ki d1) rs)) = len (List.filter is_sok (map (search_core idx_str score cfg ki d2) rs)).
Proof.
  intros. unfold len. f_equal. induction rs as [|r rs IH]; cbn [map List.filter]; [reflexivity|].
  rewrite (is_sok_proj (search_core _ _ _ _ d1 r)), (search_core_shape d1 d2 r), <- is_sok_proj.
  destruct (is_sok _); cbn [List.length]; rewrite IH; reflexivity.
Qed.
Lemma enforce_quota_same : forall s1 s2 g, equivA s1 s2 -> tenant_of g = A ->
  match enforce_quota ki s1 g, enforce_quota ki s2 g with
  | Some (b1, t1), Some (b2, t2) => b1 = b2 /\ equivA t1 t2
  | None, None => True
  | _, _ => False
  end.
Proof.
  intros s1 s2 g E Hg. unfold enforce_quota. rewrite (dexists_view_eq _ _ g (proj1 E) Hg). rewrite HkA, (get_count_equiv s1 s2 E).
  destruct (dexists (st_docs s2) g); [split; [reflexivity|exact E]|].
  destruct (k_maxvec ki <=? get_count s2 A); [exact I|]. split; [reflexivity|]. apply eq_set_count. exact E.
Qed.
Lemma same_insert : forall acc1 acc2 it, equivA (fst acc1) (fst acc2) -> snd acc1 = snd acc2 ->
  equivA (fst (bulk_insert_item idx_str cfg ki acc1 it)) (fst (bulk_insert_item idx_str cfg ki acc2 it))
  /\ snd (bulk_insert_item idx_str cfg ki acc1 it) = snd (bulk_insert_item idx_str cfg ki acc2 it)
  /\ snd (h_insert idx_str cfg ki (fst acc1) it) = snd (h_insert idx_str cfg ki (fst acc2) it).
Proof.
  intros [s1 [a1 b1]] [s2 [a2 b2]] it E Hs. cbn [fst snd] in *. inversion Hs; subst a2 b2. unfold bulk_insert_item, h_insert.
  destruct (i_id it <? 1); [auto|]. destruct (i_vec it) eqn:Ev; [auto|]. rewrite <- Ev.
  rewrite HkA. destruct (to_global_doc_id A (i_id it)) as [g|] eqn:Eg; [|auto].
  pose proof (tenant_of_to_global _ _ _ Eg) as Hg. pose proof (enforce_quota_same s1 s2 g E Hg) as Q.
  destruct (enforce_quota ki s1 g) as [[c1 t1]|]; destruct (enforce_quota ki s2 g) as [[c2 t2]|]; try contradiction; [|auto].
  destruct Q as [-> Q]. destruct (engine_insert_ok cfg (i_vec it)); destruct c2; cbn [fst snd]; (split; [auto 8 with eqv | auto]).
Qed.
Lemma same_fold_bulk_insert : forall its acc1 acc2, equivA (fst acc1) (fst acc2) /\ snd acc1 = snd acc2 ->
  equivA (fst (fold_left (bulk_insert_item idx_str cfg ki) its acc1)) (fst (fold_left (bulk_insert_item idx_str cfg ki) its acc2))
  /\ snd (fold_left (bulk_insert_item idx_str cfg ki) its acc1) = snd (fold_left (bulk_insert_item idx_str cfg ki) its acc2).
Proof.
  intro its. apply (fold_left_rel _ (fun a1 a2 => equivA (fst a1) (fst a2) /\ snd a1 = snd a2)).
  intros a1 a2 it [E Hs]. destruct (same_insert a1 a2 it E Hs) as (E' & Hs' & _). auto.
Qed.
Lemma finish_same : forall s1 s2 gs, (forall g, In g gs -> tenant_of g = A) -> equivA s1 s2 ->
  proj (snd (finish_batch_delete cfg ki s1 gs)) = proj (snd (finish_batch_delete cfg ki s2 gs))
  /\ equivA (fst (finish_batch_delete cfg ki s1 gs)) (fst (finish_batch_delete cfg ki s2 gs)).
Proof.
  intros s1 s2 gs Hgs E. unfold finish_batch_delete, engine_batch_delete. cbn [fst snd]. rewrite HkA.
  assert (Hc : List.filter (dexists (st_docs s1)) (nodup_N gs) = List.filter (dexists (st_docs s2)) (nodup_N gs)).
  { apply filter_ext_in. intros g Hg. apply dexists_view_eq; [exact (proj1 E)|]. apply Hgs. apply in_nodup_N. exact Hg. }
  rewrite Hc. split; [reflexivity|]. auto 8 with eqv.
Qed.
Lemma match_view : forall s f ns, wf s ->
  map fst (List.filter (fun p => fmatches (combined_filter idx_str ki f ns) (d_meta (snd p))) (st_docs s))
  = map fst (List.filter (fun p => fmatches (combined_filter idx_str ki f ns) (d_meta (snd p))) (viewD (st_docs s))).
Proof.
  intros s f ns W. f_equal. unfold viewD. symmetry. apply filter_absorb.
  intros [g d] Hin Hm. apply combined_filter_tidx in Hm. cbn [snd] in Hm. rewrite (W g d Hin) in Hm.
  injection Hm as Hm. apply idx_inj in Hm. unfold isA. cbn [fst]. rewrite Hm, HkA. apply N.eqb_refl.
Qed.

Lemma bl_insert_same : forall batch acc1 acc2, viewD (fst acc1) = viewD (fst acc2) /\ snd acc1 = snd acc2 ->
  viewD (fst (fold_left (bl_insert cfg) batch acc1)) = viewD (fst (fold_left (bl_insert cfg) batch acc2))
  /\ snd (fold_left (bl_insert cfg) batch acc1) = snd (fold_left (bl_insert cfg) batch acc2).
Proof.
  intro batch. apply (fold_left_rel _ (fun a1 a2 => viewD (fst a1) = viewD (fst a2) /\ snd a1 = snd a2)).
  intros [d1 [a b]] [d2 c2] p [V Hs]. cbn [fst snd] in *. subst c2. rewrite !bl_insert_eq.
  destruct (engine_insert_ok cfg (d_vec (snd p))); cbn [fst snd]; split; auto. rewrite !view_dset, V. reflexivity.
Qed.
(* the validated batch does not depend on the state and carries only A's ids *)
Lemma same_bulk_load : forall s1 s2 its, equivA s1 s2 ->
  snd (h_bulk_load idx_str cfg ki s1 its) = snd (h_bulk_load idx_str cfg ki s2 its)
  /\ equivA (fst (h_bulk_load idx_str cfg ki s1 its)) (fst (h_bulk_load idx_str cfg ki s2 its)).
Proof.
  intros s1 s2 its E. unfold h_bulk_load.
  destruct (fold_left (bl_validate idx_str ki) its ([], 0)) as [batch bad] eqn:Ev.
  pose proof (bl_validate_inv ki its ([], 0) (Forall_nil _)) as HF. rewrite Ev, Forall_forall in HF. cbn [fst] in HF.
  destruct batch as [|p0 batch']; [split; [reflexivity|exact E]|]. set (batch := p0 :: batch') in *.
  assert (HgA : forall g, In g (map fst batch) -> tenant_of g = A).
  { intros g Hg. apply in_map_iff in Hg. destruct Hg as [p [<- Hp]]. rewrite <- HkA. exact (proj1 (HF p Hp)). }
  assert (Hnew : nodup_N (List.filter (fun g => negb (dexists (st_docs s1) g)) (map fst batch))
               = nodup_N (List.filter (fun g => negb (dexists (st_docs s2) g)) (map fst batch))).
  { f_equal. apply filter_ext_in. intros g Hg. rewrite (dexists_view_eq _ _ g (proj1 E) (HgA g Hg)). reflexivity. }
  rewrite Hnew. set (new_ids := nodup_N (List.filter (fun g => negb (dexists (st_docs s2) g)) (map fst batch))).
  assert (HnA : forall g, In g new_ids -> tenant_of g = A).
  { intros g Hg. apply in_nodup_N in Hg. apply filter_In in Hg. apply HgA. apply Hg. }
  rewrite HkA, (get_count_equiv s1 s2 E).
  destruct (negb (len new_ids =? 0) && (k_maxvec ki <? get_count s2 A + len new_ids)); [split; [reflexivity|exact E]|].
  set (t1 := if len new_ids =? 0 then s1 else set_count s1 A (get_count s2 A + len new_ids)).
  set (t2 := if len new_ids =? 0 then s2 else set_count s2 A (get_count s2 A + len new_ids)).
  assert (Et : equivA t1 t2) by (unfold t1, t2; destruct (len new_ids =? 0); [exact E | apply eq_set_count; exact E]).
  destruct (bl_insert_same batch (st_docs t1, (0, 0)) (st_docs t2, (0, 0)) (conj (proj1 Et) eq_refl)) as [V Hs].
  destruct (fold_left (bl_insert cfg) batch (st_docs t1, (0, 0))) as [e1 [l1 f1]].
  destruct (fold_left (bl_insert cfg) batch (st_docs t2, (0, 0))) as [e2 [l2 f2]].
  cbn [fst snd] in *. inversion Hs; subst l2 f2.
  assert (Hins : List.filter (dexists e1) new_ids = List.filter (dexists e2) new_ids).
  { apply filter_ext_in. intros g Hg. apply dexists_view_eq; [exact V | apply HnA; exact Hg]. }
  rewrite Hins.
  pose proof (eq_set_docs t1 t2 e1 e2 Et V) as E2.
  split; [reflexivity|]. destruct (len new_ids =? 0); [exact E2|]. auto 8 with eqv.
Qed.

Lemma handle_same : forall s1 s2 r, equivA s1 s2 -> wf s1 -> wf s2 ->
  proj (snd (handle ki s1 r)) = proj (snd (handle ki s2 r)) /\ equivA (fst (handle ki s1 r)) (fst (handle ki s2 r)).
Proof.
  intros s1 s2 r E W1 W2.
  assert (Stay : forall x, proj x = proj x /\ equivA s1 s2) by (intro; split; [reflexivity|exact E]).
  assert (Read : forall x n, proj x = proj x /\ equivA (rec_query s1 A n) (rec_query s2 A n))
    by (intros; split; [reflexivity|apply eq_rec_query; exact E]).
  destruct r; cbn [Server.handle].
  - destruct (same_insert (s1, (0, 0)) (s2, (0, 0)) it E eq_refl) as (E' & _ & R). cbn [fst] in R.
    rewrite R, !(h_insert_state ki _ (0, 0)). split; [reflexivity|exact E'].
  - unfold h_bulk_insert.
    destruct (same_fold_bulk_insert its (s1, (0, 0)) (s2, (0, 0)) (conj E eq_refl)) as [E' Hs'].
    destruct (fold_left _ its (s1, _)) as [t1 [a1 b1]]. destruct (fold_left _ its (s2, _)) as [t2 [a2 b2]].
    cbn [fst snd] in *. inversion Hs'; subst. split; [reflexivity|exact E'].
  - destruct (same_bulk_load s1 s2 its E) as [Ho Es]. rewrite Ho. split; [reflexivity|exact Es].
  - rewrite !h_query_eq, HkA. destruct (id =? 0); [apply Stay|]. destruct (to_global_doc_id A id) as [g|] eqn:Eg; [|apply Stay].
    unfold bq_one. rewrite (dget_equiv s1 s2 g E (tenant_of_to_global _ _ _ Eg)). apply Read.
  - unfold h_bulk_query. rewrite HkA. destruct (map_ids A ids) as [gs|] eqn:Em; [|apply Stay].
    rewrite (zipwith_ext _ _ _ (bq_one idx_str ki (st_docs s1) incl ns) (bq_one idx_str ki (st_docs s2) incl ns) ids gs); [apply Read|].
    intros x g Hg. unfold bq_one. rewrite (dget_equiv s1 s2 g E (map_ids_tenant _ _ _ Em g Hg)). reflexivity.
  - unfold h_search. pose proof (search_core_shape (st_docs s1) (st_docs s2) s) as Sh.
    destruct (search_core idx_str score cfg ki (st_docs s1) s); destruct (search_core idx_str score cfg ki (st_docs s2) s); cbn in Sh; try discriminate Sh.
    + inversion Sh; subst. apply Stay.
    + rewrite HkA. cbn [fst snd proj]. split; [reflexivity|apply eq_rec_query; exact E].
  - unfold h_bulk_search. cbn [fst snd]. rewrite HkA. rewrite (sok_count (st_docs s1) (st_docs s2) ss). split; [|auto 8 with eqv].
    cbn [proj]. f_equal. rewrite !map_map. apply map_ext. intro r. apply search_core_shape.
  - unfold h_update. destruct (id =? 0); [apply Stay|].
    rewrite HkA. destruct (to_global_doc_id A id) as [g|] eqn:Eg; [|apply Stay].
    rewrite (dget_equiv s1 s2 g E (tenant_of_to_global _ _ _ Eg)).
    destruct (dget (st_docs s2) g) as [d|]; [|apply Stay].
    destruct (negb _); [apply Stay|]. destruct (negb _); [apply Stay|].
    cbn [fst snd]. split; [reflexivity|]. auto 8 with eqv.
  - unfold h_delete. destruct (id <? 1); [apply Stay|].
    rewrite HkA. destruct (to_global_doc_id A id) as [g|] eqn:Eg; [|apply Stay].
    rewrite (dget_equiv s1 s2 g E (tenant_of_to_global _ _ _ Eg)).
    destruct (dget (st_docs s2) g) as [d|]; [|apply Stay].
    destruct (negb _); [apply Stay|]. destruct (negb _); [apply Stay|].
    cbn [fst snd]. split; [reflexivity|]. rewrite !dremove_filter. auto 8 with eqv.
  - unfold h_batch_delete_ids. rewrite HkA. destruct (map_ids A ids) as [gs|] eqn:Em; [|apply Stay].
    erewrite (filter_ext_in _ _ gs).
    2: { intros g Hg. rewrite (dget_equiv s1 s2 g E (map_ids_tenant _ _ _ Em g Hg)). reflexivity. }
    apply finish_same; [|exact E]. intros g Hg. apply filter_In in Hg. exact (map_ids_tenant _ _ _ Em g (proj1 Hg)).
  - (* the filter selects documents of the A-view only *) unfold h_batch_delete_filter.
    rewrite (match_view s1 f ns W1), (match_view s2 f ns W2), (proj1 E).
    apply finish_same; [|exact E]. intros g Hg. apply in_map_iff in Hg. destruct Hg as [[g' d] [<- Hg]].
    apply filter_In, proj1, filter_In, proj2 in Hg. apply N.eqb_eq in Hg. exact Hg.
  - apply Stay.
  - destruct force; [split; [reflexivity|exact E] | apply Stay].
  - unfold h_usage. rewrite HkA, Hadm, (proj2 (proj2 E)).
    destruct scope as [sc|]; [|apply Stay].
    destruct (str_eq_nocase sc (s2l "self")); [apply Stay|].
    destruct (str_eq_nocase sc (s2l "all")); apply Stay.
Qed.
End Same.


Definition callerA (c : call) : bool := match caller cfg c with Some t => t =? A | None => false end.
(* tenant A's (projected) responses along a run from state s *)
Fixpoint obsA (s : state) (cs : list call) : list resp :=
  match cs with
  | [] => []
  | c :: r => (if callerA c then [proj (snd (step s c))] else []) ++ obsA (fst (step s c)) r
  end.
Definition remove_tenant (B : N) (cs : list call) : list call :=
  List.filter (fun c => match caller cfg c with Some t => negb (t =? B) | None => true end) cs.
(* the same thing read off the response list of Server.run_from *)
Fixpoint sel (cs : list call) (rs : list resp) : list resp :=
  match cs, rs with
  | c :: cs', r :: rs' => (if callerA c then [proj r] else []) ++ sel cs' rs'
  | _, _ => []
  end.
Lemma obsA_sel : forall cs s, obsA s cs = sel cs (snd (run_from idx_str score cfg s cs)).
Proof.
  induction cs as [|c r IH]; intro s; [reflexivity|]. cbn [obsA run_from].
  destruct (step s c) as [s1 o] eqn:E1. cbn [fst snd]. rewrite IH.
  destruct (run_from idx_str score cfg s1 r) as [s2 os]. reflexivity.
Qed.

Hypothesis A_not_admin : forall k ki, nget (c_keys cfg) k = Some ki -> k_tenant ki = A -> k_admin ki = false.

Definition keepB (B : N) (c : call) : bool := match caller cfg c with Some t => negb (t =? B) | None => true end.
Lemma remove_cons : forall B c r, remove_tenant B (c :: r) = if keepB B c then c :: remove_tenant B r else remove_tenant B r.
Proof. reflexivity. Qed.
Lemma obsA_cons : forall s c r, obsA s (c :: r) = (if callerA c then [proj (snd (step s c))] else []) ++ obsA (fst (step s c)) r.
Proof. reflexivity. Qed.

(* the two unwinding conditions, per call *)
Lemma step_other : forall s c, callerA c = false -> wf s -> equivA s (fst (step s c)).
Proof.
  intros s c H W. unfold callerA, caller, Server.step in *. destruct (auth cfg (c_key c)) as [ki|]; [|apply equivA_refl].
  apply handle_other; [apply N.eqb_neq; exact H | exact W].
Qed.
Lemma step_same : forall s1 s2 c, callerA c = true -> equivA s1 s2 -> wf s1 -> wf s2 ->
  proj (snd (step s1 c)) = proj (snd (step s2 c)) /\ equivA (fst (step s1 c)) (fst (step s2 c)).
Proof.
  intros s1 s2 c H E W1 W2. unfold callerA, caller, Server.step in *.
  destruct (auth cfg (c_key c)) as [ki|] eqn:Ea; [|discriminate]. apply N.eqb_eq in H.
  destruct (auth_some _ _ _ Ea) as [k [_ [Hkk _]]].
  exact (handle_same ki H (A_not_admin k ki Hkk H) s1 s2 (c_req c) E W1 W2).
Qed.
Lemma callerA_kept : forall B c, A <> B -> callerA c = true -> keepB B c = true.
Proof.
  intros B c HAB H. unfold callerA, keepB in *. destruct (caller cfg c); [|reflexivity].
  apply N.eqb_eq in H. subst. apply negb_true_iff, N.eqb_neq. exact HAB.
Qed.

Theorem unwinding : forall B cs s1 s2, A <> B -> equivA s1 s2 -> wf s1 -> wf s2 ->
  obsA s1 cs = obsA s2 (remove_tenant B cs).
Proof.
  intros B cs. induction cs as [|c r IH]; intros s1 s2 HAB E W1 W2; [reflexivity|].
  rewrite remove_cons, obsA_cons. destruct (callerA c) eqn:HcA.
  - rewrite (callerA_kept B c HAB HcA), obsA_cons, HcA.
    destruct (step_same s1 s2 c HcA E W1 W2) as [Ho Es]. rewrite Ho. cbn [app]. f_equal.
    apply IH; try assumption; apply wf_step; assumption.
  - cbn [app]. pose proof (equivA_sym _ _ (step_other s1 c HcA W1)) as O1. destruct (keepB B c).
    + rewrite obsA_cons, HcA. cbn [app]. apply IH; try assumption; try (apply wf_step; assumption).
      apply equivA_trans with s1; [exact O1|]. apply equivA_trans with s2; [exact E|apply step_other; assumption].
    + apply IH; try assumption; [|apply wf_step; assumption]. apply equivA_trans with s1; [exact O1|exact E].
Qed.

Theorem noninterference : forall B cs, A <> B ->
  sel cs (run idx_str score cfg cs) = sel (remove_tenant B cs) (run idx_str score cfg (remove_tenant B cs)).
Proof.
  intros B cs HAB. unfold run. rewrite <- !obsA_sel.
  apply unwinding; try assumption; try apply equivA_refl; apply wf_init.
Qed.

End NI.

(* a two-tenant history on which the Search hit count and FlushHotTier's count do depend on the other tenant *)
Definition w_score (d : Z) : Z := (100000 - d)%Z.      (* any strictly decreasing stand-in for the f32 score *)
Definition w_cfg : config :=
  mkCfg [(1, mkKey 0 (s2l "acme") true false 1000); (2, mkKey 1 (s2l "bolt") true false 1000)] 2.
Definition w_item (id : N) (x : Z) : item := mkItem id [x; 0%Z] [] [].
Definition w_a_inserts : list call := map (fun i => mkCall (Some 1) (RInsert (w_item i (4 + Z.of_N i)%Z))) [1; 2; 3; 4; 5].
Definition w_b_inserts : list call := map (fun i => mkCall (Some 2) (RInsert (w_item i (Z.of_N i - 3)%Z))) [1; 2; 3; 4; 5].
Definition w_search : call := mkCall (Some 1) (RSearch (mkSreq [0%Z; 0%Z] 5 0%Z [] false 0 None [])).
Definition w_flush : call := mkCall (Some 1) (RFlush true).
Definition hits_of (r : resp) : N := match r with OkSearch h _ => len h | _ => 999 end.
