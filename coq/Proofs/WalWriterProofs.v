(* The WAL writer of Model/WalWriter.v under storage faults (C03). *)
From Coq Require Import List NArith Bool Arith Lia.
From Kyro Require Import Model.WalBytes Proofs.ListFacts Proofs.WalBytesProofs Model.WalWriter.
Import ListNotations.
Open Scope N_scope.

Lemma app_firstn {A} (x y : list A) : y <> [] ->
  x = firstn (length x) (x ++ y) /\ (length x < length (x ++ y))%nat.
Proof.
  intro Hy. rewrite firstn_app, Nat.sub_diag, firstn_all, app_nil_r, app_length.
  split; [reflexivity|]. destruct y; [contradiction|cbn; lia].
Qed.

Lemma set_len_app (f x : bytes) : set_len (N.of_nat (length f)) (f ++ x) = f.
Proof.
  unfold set_len. rewrite Nat2N.id, firstn_app, Nat.sub_diag, firstn_all. cbn [firstn].
  rewrite app_nil_r, app_length.
  replace (length f - (length f + length x))%nat with 0%nat by lia. cbn. now rewrite app_nil_r.
Qed.

Definition same_meta (w w' : writer) : Prop :=
  w_bytes w' = w_bytes w /\ w_count w' = w_count w /\ w_poisoned w' = w_poisoned w.

Lemma same_meta_refl w : same_meta w w.
Proof. repeat split. Qed.

Lemma same_meta_trans a b c : same_meta a b -> same_meta b c -> same_meta a c.
Proof. unfold same_meta. intuition congruence. Qed.

(* w' is w with x appended to the file; counters and poison flag untouched *)
Definition wrote (w w' : writer) (x : bytes) : Prop := same_meta w w' /\ w_file w' = w_file w ++ x.

Lemma wrote_refl w : wrote w w [].
Proof. split; [apply same_meta_refl|now rewrite app_nil_r]. Qed.

Lemma wrote_log k w : wrote w (log k w) [].
Proof. split; [repeat split|cbn; now rewrite app_nil_r]. Qed.

Lemma wrote_put_log k x w : wrote w (put x (log k w)) x.
Proof. repeat split. Qed.

Lemma wrote_trans a b c x y : wrote a b x -> wrote b c y -> wrote a c (x ++ y).
Proof.
  intros [M1 F1] [M2 F2]. split; [eapply same_meta_trans; eauto|]. now rewrite F2, F1, app_assoc.
Qed.

(* an initial part x of buf is written; success exactly when nothing is left *)
Definition wrote_part (buf : bytes) (w w' : writer) (e : option errkind) : Prop :=
  exists x y, buf = x ++ y /\ wrote w w' x /\ (e = None <-> y = []).

Lemma wrote_empty w : wrote_part [] w w None.
Proof. exists [], []. split; [reflexivity|]. split; [apply wrote_refl|tauto]. Qed.

Lemma wrote_all buf k w : wrote_part buf w (put buf (log k w)) None.
Proof. exists buf, []. rewrite app_nil_r. repeat split. Qed.

Lemma wrote_none buf k w e : buf <> [] -> wrote_part buf w (log k w) (Some e).
Proof.
  intro Hb. exists [], buf. split; [reflexivity|]. split; [apply wrote_log|]. split; [discriminate|contradiction].
Qed.

Lemma wrote_more x0 rest w w1 w' e : wrote w w1 x0 -> wrote_part rest w1 w' e -> wrote_part (x0 ++ rest) w w' e.
Proof.
  intros W0 (x & y & -> & W & He). exists (x0 ++ x), y. rewrite app_assoc.
  split; [reflexivity|]. split; [exact (wrote_trans _ _ _ _ _ W0 W)|exact He].
Qed.

Lemma write_all_spec orc : forall buf w w' e o, write_all buf w orc = (w', e, o) -> wrote_part buf w w' e.
Proof.
  induction orc as [|r orc IH]; intros buf w w' e o H;
    (destruct buf as [|b buf]; cbn [write_all] in H; [injection H as <- <- <-; apply wrote_empty|]).
  - injection H as <- <- <-. apply wrote_all.
  - destruct r as [|n|er].
    + injection H as <- <- <-. apply wrote_all.
    + destruct (n =? 0)%nat; [injection H as <- <- <-; apply wrote_none; discriminate|].
      destruct (length (b :: buf) <=? n)%nat; [injection H as <- <- <-; apply wrote_all|].
      (* short write: the loop goes on with the rest *)
      apply IH in H. rewrite <- (firstn_skipn n (b :: buf)).
      exact (wrote_more _ _ _ _ _ _ (wrote_put_log _ _ _) H).
    + destruct er; try (injection H as <- <- <-; apply wrote_none; discriminate).
      (* EINTR: retried *)
      apply IH in H. exact (wrote_more [] _ _ _ _ _ (wrote_log _ _) H).
Qed.

Lemma sys_spec k orc : forall w w' e o, sys k w orc = (w', e, o) -> wrote w w' [].
Proof.
  induction orc as [|r orc IH]; intros w w' e o H; cbn [sys] in H.
  - injection H as <- _ _. apply wrote_log.
  - destruct r as [|n|er]; try (injection H as <- _ _; apply wrote_log).
    destruct er; try (injection H as <- _ _; apply wrote_log).
    apply IH in H. exact (wrote_trans _ _ _ _ _ (wrote_log _ _) H).
Qed.

Section WriterProofs.
  Variable crc : bytes -> N.
  Variable pol : policy.
  Variable deser_ok : bytes -> bool.
  Hypothesis crc_lt : forall p, crc p < 4294967296.

  Notation frame := (frame crc).
  Notation segment := (segment crc).
  Notation frames := (fun ps => concat (map frame ps)).
  Notation read_all_strict := (read_all_strict crc deser_ok).
  Notation write_entry := (write_entry crc).
  Notation write_entries := (write_entries crc).
  Notation perform_fsync := (perform_fsync pol).
  Notation append_internal := (append_internal crc pol).
  Notation append_batch_internal := (append_batch_internal crc pol).
  Notation append := (append crc pol).
  Notation append_batch := (append_batch crc pol).
  Notation known_c03 := (known_c03 crc pol).
  Notation wstep := (wstep crc pol).
  Notation wrun := (wrun crc pol).

  (* a payload the engine can log: size within bounds and bincode-decodable *)
  Definition wfp (p : bytes) : Prop := valid_payload p /\ deser_ok p = true.

  (* what a failed, un-rolled-back write can leave behind its last complete frame *)
  Definition tornp (t : bytes) : Prop :=
    t = [] \/ exists q k, valid_payload q /\ (k < length (frame q))%nat /\ t = firstn k (frame q).

  Lemma wfp_valid ps : Forall wfp ps -> Forall valid_payload ps.
  Proof. intro H. eapply Forall_impl; [|exact H]. intros a [Hv _]. exact Hv. Qed.

  Lemma tornp_silent t : tornp t -> forall f, read_frames crc deser_ok f t = ([], 0).
  Proof.
    intros [->|(q & k & Hq & Hk & ->)] f; [apply read_frames_nil|now apply read_frames_partial_frame].
  Qed.

  Lemma read_segment_torn es t :
    Forall wfp es -> tornp t -> read_all_strict (segment es ++ t) = RdOk es.
  Proof.
    intros Hw Ht. apply (read_segment_silent crc deser_ok crc_lt); [apply wfp_valid, Hw| |apply tornp_silent, Ht].
    intros p Hp. rewrite Forall_forall in Hw. apply Hw, Hp.
  Qed.

  Lemma segment_app es qs : segment (es ++ qs) = segment es ++ frames qs.
  Proof. unfold WalBytes.segment. now rewrite map_app, concat_app, app_assoc. Qed.

  Lemma write_entry_spec p w orc w' e o :
    write_entry p w orc = (w', e, o) ->
    w_poisoned w' = w_poisoned w /\
    match e with
    | None => w_file w' = w_file w ++ frame p /\ w_bytes w' = w_bytes w + N.of_nat (length (frame p))
    | Some _ => exists k, (k < length (frame p))%nat /\ w_file w' = w_file w ++ firstn k (frame p)
    end.
  Proof.
    unfold WalWriter.write_entry. intro H.
    destruct (max_wal_entry <? N.of_nat (length p)).
    { injection H as <- <- _. split; [reflexivity|]. exists 0%nat.
      rewrite (frame_length crc). cbn. rewrite app_nil_r. split; [lia|reflexivity]. }
    destruct (write_all (frame p) w orc) as [[w1 e1] o1] eqn:E.
    apply write_all_spec in E. destruct E as (x & y & Ef & [(Mb & Mc & Mp) Hf] & He).
    destruct e1 as [k|]; injection H as <- <- _.
    - split; [exact Mp|]. destruct (app_firstn x y) as [Hx Hl]; [intro Hy; apply He in Hy; discriminate|].
      rewrite <- Ef in Hx, Hl. exists (length x). split; [exact Hl|]. now rewrite <- Hx.
    - split; [exact Mp|]. cbn [set_counters w_file w_bytes].
      pose proof (proj1 He eq_refl) as ->. rewrite app_nil_r in Ef. rewrite <- Ef in Hf.
      split; [exact Hf|now rewrite Mb].
  Qed.

  (* all in the file and counted, or an error with some complete frames of this call and a torn tail *)
  Definition batch_post (ps : list bytes) (w w' : writer) (e : option errkind) : Prop :=
    w_poisoned w' = w_poisoned w /\
    match e with
    | None => w_file w' = w_file w ++ frames ps /\
              w_bytes w' = w_bytes w + N.of_nat (length (frames ps))
    | Some _ => exists j t, tornp t /\ w_file w' = w_file w ++ frames (firstn j ps) ++ t
    end.

  Lemma write_entries_spec ps : forall w orc w' e o,
    Forall valid_payload ps -> write_entries ps w orc = (w', e, o) -> batch_post ps w w' e.
  Proof.
    induction ps as [|p ps IH]; intros w orc w' e o Hv H; cbn [WalWriter.write_entries] in H.
    - injection H as <- <- _. split; [reflexivity|]. cbn. rewrite app_nil_r. split; [reflexivity|lia].
    - inversion Hv as [|? ? Hp Hps]; subst.
      destruct (write_entry p w orc) as [[w1 e1] o1] eqn:E.
      apply write_entry_spec in E. destruct E as [Mp E]. destruct e1 as [x|].
      + injection H as <- <- _. split; [exact Mp|]. destruct E as (k & Hk & Hf).
        exists 0%nat, (firstn k (frame p)). split; [right; exists p, k; auto|exact Hf].
      + destruct E as [Hf Hb]. apply IH in H; [|exact Hps]. destruct H as [Mp' H].
        split; [congruence|]. destruct e as [x|].
        * destruct H as (j & t & Ht & Hf'). exists (S j), t. split; [exact Ht|].
          cbn [firstn map concat]. now rewrite Hf', Hf, <- !app_assoc.
        * destruct H as [Hf' Hb']. cbn [map concat].
          rewrite Hf', Hf, Hb', Hb, app_length, <- app_assoc. split; [reflexivity|lia].
  Qed.

  Lemma perform_fsync_spec w orc w' e o : perform_fsync w orc = (w', e, o) -> wrote w w' [].
  Proof.
    unfold WalWriter.perform_fsync, io_err. intro H.
    destruct pol;
      [destruct (sys KFsync w orc) as [[w1 e1] o1] eqn:E|destruct (sys KFdatasync w orc) as [[w1 e1] o1] eqn:E|];
      injection H as <- _ _; [eapply sys_spec; eauto ..|apply wrote_refl].
  Qed.

  Lemma batch_internal_spec ps w orc w' e o :
    Forall valid_payload ps -> append_batch_internal ps w orc = (w', e, o) -> batch_post ps w w' e.
  Proof.
    intros Hv H. unfold WalWriter.append_batch_internal in H.
    destruct (write_entries ps w orc) as [[w1 e1] o1] eqn:E.
    apply write_entries_spec in E; [|exact Hv].
    destruct e1 as [x|]; [injection H as <- <- _; exact E|].
    (* all frames written; a failing fsync leaves them in the file *)
    destruct E as [Mp [Hf Hb]]. apply perform_fsync_spec in H. destruct H as [(Mb & Mc & Mp') Hf'].
    rewrite app_nil_r in Hf'. split; [congruence|]. destruct e as [x|]; [|split; congruence].
    exists (length ps), []. split; [left; reflexivity|]. rewrite firstn_all, app_nil_r. congruence.
  Qed.

  Lemma rollback_spec off cnt w orc w' e o :
    rollback_to_stable_state off cnt w orc = (w', e, o) ->
    w_poisoned w' = w_poisoned w /\
    match e with
    | None => w_file w' = set_len off (w_file w) /\ w_bytes w' = off /\ w_count w' = cnt
    | Some _ => w_file w' = w_file w \/ w_file w' = set_len off (w_file w)
    end.
  Proof.
    unfold rollback_to_stable_state, rollback_to_offset. intro H.
    destruct (sys KFtruncate w orc) as [[w1 e1] o1] eqn:E1. apply sys_spec in E1.
    destruct E1 as [(Mb & Mc & Mp) Hf]. rewrite app_nil_r in Hf.
    destruct e1 as [x|]; [injection H as <- <- _; auto|].
    destruct (sys KFdatasync (set_file (set_len off (w_file w1)) w1) o1) as [[w2 e2] o2] eqn:E2.
    apply sys_spec in E2. destruct E2 as [(Mb2 & Mc2 & Mp2) Hf2].
    rewrite app_nil_r in Hf2. cbn [set_file w_file w_poisoned] in *.
    destruct e2 as [x|]; injection H as <- <- _.
    - split; [congruence|]. right. congruence.
    - split; [cbn; congruence|]. cbn [set_counters w_file w_bytes w_count]. rewrite Hf2, Hf. auto.
  Qed.

  (* between attempts of one call that started on file f0: rolled back, or poisoned with leftovers *)
  Definition clean (f0 : bytes) (w : writer) : Prop :=
    w_poisoned w = false /\ w_file w = f0 /\ w_bytes w = N.of_nat (length f0).
  Definition dirty (f0 : bytes) (ps : list bytes) (w : writer) : Prop :=
    w_poisoned w = true /\ exists j t, tornp t /\ w_file w = f0 ++ frames (firstn j ps) ++ t.
  Definition mid (f0 : bytes) (ps : list bytes) (w : writer) : Prop := clean f0 w \/ dirty f0 ps w.

  Lemma attempt_poisoned inner off cnt w orc :
    w_poisoned w = true -> with_rollback inner off cnt w orc = (w, Some XPoisoned, orc).
  Proof. intro H. unfold with_rollback. now rewrite H. Qed.

  (* `mid` is kept by every attempt, so it is the invariant of the retry loop *)
  Lemma attempt_spec ps f0 cnt w orc w' e o :
    Forall valid_payload ps -> mid f0 ps w ->
    with_rollback (append_batch_internal ps) (N.of_nat (length f0)) cnt w orc = (w', e, o) ->
    match e with None => clean (f0 ++ frames ps) w' | Some _ => mid f0 ps w' end.
  Proof.
    intros Hv [(Hp & Hf & Hb)|Hd].
    2:{ rewrite attempt_poisoned by apply Hd. intro H. injection H as <- <- _. right. exact Hd. }
    subst f0. unfold with_rollback. rewrite Hp.
    destruct (append_batch_internal ps w orc) as [[w1 e1] o1] eqn:E.
    apply batch_internal_spec in E; [|exact Hv]. destruct E as [Mp E].
    destruct e1 as [werr|].
    - destruct E as (j & t & Ht & Hf1).
      destruct (rollback_to_stable_state (N.of_nat (length (w_file w))) cnt w1 o1) as [[w2 e2] o2] eqn:R.
      apply rollback_spec in R. destruct R as [Mp2 R].
      destruct e2 as [rerr|]; intro H; injection H as <- <- _.
      + (* the rollback failed: poisoned; truncated or not *)
        right. split; [reflexivity|]. cbn [poison w_file]. destruct R as [Hk|Hk].
        * exists j, t. split; [exact Ht|]. congruence.
        * exists 0%nat, []. split; [left; reflexivity|]. cbn. rewrite app_nil_r, Hk, Hf1.
          apply set_len_app.
      + left. destruct R as (Hk & Hb2 & _).
        split; [congruence|]. split; [|exact Hb2]. rewrite Hk, Hf1. apply set_len_app.
    - destruct E as [Hf1 Hb1]. intro H. injection H as <- <- _.
      split; [congruence|]. split; [congruence|]. rewrite Hb1, Hb, app_length. lia.
  Qed.

  Lemma retry_loop_poisoned n inner off cnt w b orc :
    w_poisoned w = true ->
    retry_loop n (with_rollback inner off cnt) w b orc =
      (mkS w (record_failure b), Failed (FError XPoisoned), orc).
  Proof. intro H. destruct n; cbn [retry_loop]; rewrite (attempt_poisoned _ _ _ _ _ H); reflexivity. Qed.

  Lemma retry_loop_spec ps f0 cnt n : forall w b orc st' r o,
    Forall valid_payload ps -> mid f0 ps w ->
    retry_loop n (with_rollback (append_batch_internal ps) (N.of_nat (length f0)) cnt) w b orc = (st', r, o) ->
    match r with Acked => clean (f0 ++ frames ps) (s_w st') | Failed _ => mid f0 ps (s_w st') end.
  Proof.
    induction n as [|n IH]; intros w b orc st' r o Hv Hm H; cbn [retry_loop] in H;
      destruct (with_rollback _ _ _ w orc) as [[w1 e1] o1] eqn:A;
      pose proof (attempt_spec _ _ _ _ _ _ _ _ Hv Hm A) as S;
      (destruct e1 as [x|]; [|injection H as <- <- _; exact S]);
      destruct (classify x); try (injection H as <- <- _; exact S).
    (* Transient, retries left: the SAME closure again *)
    eapply IH; eauto.
  Qed.

  Lemma append_internal_batch1 p w orc : append_internal p w orc = append_batch_internal [p] w orc.
  Proof.
    unfold WalWriter.append_internal, WalWriter.append_batch_internal. cbn [WalWriter.write_entries].
    destruct (write_entry p w orc) as [[w1 [x|]] o1]; reflexivity.
  Qed.

  Lemma with_rollback_ext f g off cnt w orc :
    (forall w orc, f w orc = g w orc) -> with_rollback f off cnt w orc = with_rollback g off cnt w orc.
  Proof. intro E. unfold with_rollback. now rewrite E. Qed.

  Lemma retry_loop_ext f g n : (forall w orc, f w orc = g w orc) ->
    forall w b orc, retry_loop n f w b orc = retry_loop n g w b orc.
  Proof.
    intro E. induction n as [|n IH]; intros w b orc; cbn [retry_loop]; rewrite E;
      destruct (g w orc) as [[w1 [x|]] o1]; try reflexivity.
    destruct (classify x); try reflexivity. apply IH.
  Qed.

  Lemma append_as_batch st p orc : append st p orc = append_batch st [p] orc.
  Proof.
    unfold WalWriter.append, WalWriter.append_batch, write_with_retry.
    destruct (b_open (s_b st)); [reflexivity|].
    apply retry_loop_ext. intros w o. apply with_rollback_ext. apply append_internal_batch1.
  Qed.

  Lemma wstep_as_batch st op orc : wstep st op orc = append_batch st (wpayloads op) orc.
  Proof. destruct op; cbn [WalWriter.wstep wpayloads]; [apply append_as_batch|reflexivity]. Qed.

  (* the file is a well-formed segment of entries `es` followed by a torn tail; the tail is empty and
     the byte counter exact unless the writer is poisoned *)
  Definition Inv (st : wstate) (es : list bytes) : Prop :=
    Forall wfp es /\
    exists t, tornp t /\ w_file (s_w st) = segment es ++ t /\
              (w_poisoned (s_w st) = false -> t = [] /\ w_bytes (s_w st) = N.of_nat (length (w_file (s_w st)))).

  Lemma Inv_clean st es : Forall wfp es -> clean (segment es) (s_w st) -> Inv st es.
  Proof.
    intros Hw (Hp & Hf & Hb). split; [exact Hw|]. exists []. rewrite app_nil_r.
    split; [left; reflexivity|]. split; [exact Hf|]. intros _. split; [reflexivity|congruence].
  Qed.

  Lemma Inv_unpoisoned st es : Inv st es -> w_poisoned (s_w st) = false -> clean (segment es) (s_w st).
  Proof.
    intros (_ & t & _ & Hf & Hc) Hp. destruct (Hc Hp) as [-> Hb]. rewrite app_nil_r in Hf.
    split; [exact Hp|]. split; [exact Hf|congruence].
  Qed.

  Lemma Inv_poisoned st es t :
    Forall wfp es -> tornp t -> w_poisoned (s_w st) = true -> w_file (s_w st) = segment es ++ t -> Inv st es.
  Proof. intros Hw Ht Hp Hf. split; [exact Hw|]. exists t. repeat split; auto; congruence. Qed.

  Lemma Inv_init : Inv init [].
  Proof. apply Inv_clean; [constructor|repeat split]. Qed.

  Lemma Inv_read st es : Inv st es -> read_all_strict (w_file (s_w st)) = RdOk es.
  Proof. intros (Hw & t & Ht & Hf & _). rewrite Hf. apply read_segment_torn; assumption. Qed.

  Lemma batch_poisoned st ps orc st' r o :
    w_poisoned (s_w st) = true -> append_batch st ps orc = (st', r, o) ->
    is_failed r = true /\ s_w st' = s_w st /\ o = orc.
  Proof.
    intros Hp H. unfold WalWriter.append_batch, write_with_retry in H.
    destruct (b_open (s_b st)).
    - inversion H; subst. auto.
    - rewrite (retry_loop_poisoned _ _ _ _ _ _ _ Hp) in H. inversion H; subst. auto.
  Qed.

  (* the reader's view grows by a prefix of the call's payloads: all when acknowledged, none when
     the call fails outside the recorded class *)
  Lemma batch_step st es ps orc st' r o :
    Inv st es -> Forall wfp ps -> append_batch st ps orc = (st', r, o) ->
    exists j, Inv st' (es ++ firstn j ps) /\
              (r = Acked -> firstn j ps = ps) /\
              (is_failed r = true -> known_c03 st ps orc = false -> firstn j ps = []).
  Proof.
    intros HI Hps H. pose proof HI as (Hw & _).
    destruct (w_poisoned (s_w st)) eqn:Hp.
    { destruct (batch_poisoned st ps orc st' r o Hp H) as (Hr & Hs & _).
      exists 0%nat. cbn [firstn]. rewrite app_nil_r. split; [unfold Inv; rewrite Hs; exact HI|].
      split; [intros ->; discriminate|reflexivity]. }
    destruct (Inv_unpoisoned _ _ HI Hp) as (_ & Hf & Hb).
    pose proof H as H0. unfold WalWriter.append_batch, write_with_retry in H.
    destruct (b_open (s_b st)).
    { injection H as <- <- _. exists 0%nat. cbn [firstn]. rewrite app_nil_r. split; [exact HI|].
      split; [discriminate|reflexivity]. }
    rewrite Hb in H.
    apply (retry_loop_spec ps (segment es)) in H; [|apply wfp_valid; exact Hps|left; repeat split; assumption].
    destruct r as [|fl]; [|destruct H as [Hc|(Hp' & j & t & Ht & Hf')]].
    - exists (length ps). rewrite firstn_all. rewrite <- segment_app in H.
      split; [apply Inv_clean; [apply Forall_app; auto|exact H]|]. split; [reflexivity|discriminate].
    - exists 0%nat. cbn [firstn]. rewrite app_nil_r. split; [apply Inv_clean; assumption|].
      split; [discriminate|reflexivity].
    - exists j. split; [|split; [discriminate|]].
      + apply (Inv_poisoned _ _ t); [apply Forall_app; split; [exact Hw|apply Forall_firstn; exact Hps]|exact Ht|exact Hp'|].
        now rewrite Hf', segment_app, <- app_assoc.
      + (* outside the recorded class not even the first frame is completely in the file *)
        intros _ Hk. destruct ps as [|p ps]; [now rewrite firstn_nil|].
        destruct j as [|j]; [reflexivity|]. exfalso.
        unfold WalWriter.known_c03 in Hk. rewrite H0, Hp, Hp' in Hk. cbn [is_failed negb andb] in Hk.
        apply Nat.leb_gt in Hk. rewrite Hf', Hf in Hk. cbn [firstn map concat] in Hk.
        rewrite !app_length in Hk. lia.
  Qed.

  (* after a failed rollback nothing is acknowledged (until the segment is reopened), and the file is
     not touched again *)
  Theorem no_ack_after_poison st op orc st' r o :
    w_poisoned (s_w st) = true -> wstep st op orc = (st', r, o) ->
    is_failed r = true /\ s_w st' = s_w st /\ o = orc.
  Proof. intros Hp H. rewrite wstep_as_batch in H. eapply batch_poisoned; eauto. Qed.

  Theorem no_ack_after_poison_run ops : forall st orc st' rs o,
    w_poisoned (s_w st) = true -> wrun st ops orc = (st', rs, o) ->
    Forall (fun r => is_failed r = true) rs /\ s_w st' = s_w st.
  Proof.
    induction ops as [|op ops IH]; intros st orc st' rs o Hp H; cbn [WalWriter.wrun] in H.
    - inversion H; subst. split; [constructor|reflexivity].
    - destruct (wstep st op orc) as [[st1 r1] o1] eqn:E1.
      destruct (wrun st1 ops o1) as [[st2 rs2] o2] eqn:E2. inversion H; subst; clear H.
      destruct (no_ack_after_poison _ _ _ _ _ _ Hp E1) as (Hr & Hs & _).
      destruct (IH st1 o1 st' rs2 o ltac:(congruence) E2) as (Hrs & Hs').
      split; [constructor; assumption|congruence].
  Qed.

  Fixpoint acked_payloads (ops : list wop) (rs : list result) : list bytes :=
    match ops, rs with
    | op :: ops', Acked :: rs' => wpayloads op ++ acked_payloads ops' rs'
    | _ :: ops', _ :: rs' => acked_payloads ops' rs'
    | _, _ => []
    end.

  Fixpoint any_known (st : wstate) (ops : list wop) (orc : oracle) : bool :=
    match ops with
    | [] => false
    | op :: r =>
        known_c03 st (wpayloads op) orc ||
        (let '(st1, _, orc1) := wstep st op orc in any_known st1 r orc1)
    end.

  Definition sublist_in (a b : list bytes) : Prop := forall p, In p a -> In p b.

  Lemma wrun_spec ops : forall st es orc st' rs o,
    Inv st es -> Forall (fun op => Forall wfp (wpayloads op)) ops ->
    wrun st ops orc = (st', rs, o) ->
    exists es', Inv st' es' /\
                (forall p, In p es \/ In p (acked_payloads ops rs) -> In p es') /\
                (any_known st ops orc = false -> es' = es ++ acked_payloads ops rs).
  Proof.
    induction ops as [|op ops IH]; intros st es orc st' rs o HI Hps H; cbn [WalWriter.wrun] in H.
    - inversion H; subst. exists es. split; [exact HI|]. split.
      + intros p [Hp|[]]. exact Hp.
      + intros _. cbn. now rewrite app_nil_r.
    - inversion Hps as [|? ? Hop Hops]; subst.
      destruct (wstep st op orc) as [[st1 r1] o1] eqn:E1.
      destruct (wrun st1 ops o1) as [[st2 rs2] o2] eqn:E2. inversion H; subst; clear H.
      pose proof E1 as E1'. rewrite wstep_as_batch in E1'.
      destruct (batch_step st es _ orc st1 r1 o1 HI Hop E1') as (j & HI1 & Ha & Hz).
      destruct (IH st1 _ o1 st' rs2 o HI1 Hops E2) as (es' & HI' & Hin & Hex).
      exists es'. split; [exact HI'|]. split.
      + intros p Hp. apply Hin. destruct r1 as [|f].
        * rewrite (Ha eq_refl). cbn [acked_payloads] in Hp.
          rewrite !in_app_iff in *. tauto.
        * cbn [acked_payloads] in Hp. rewrite in_app_iff. tauto.
      + cbn [any_known]. rewrite E1. intro Hk. apply orb_false_iff in Hk. destruct Hk as [Hk1 Hk2].
        rewrite (Hex Hk2). destruct r1 as [|f].
        * rewrite (Ha eq_refl). cbn [acked_payloads]. now rewrite app_assoc.
        * rewrite (Hz eq_refl Hk1), app_nil_r. reflexivity.
  Qed.

  Notation recover := (recover crc deser_ok).
  Notation estep := (estep crc pol).
  Notation e_known := (e_known crc pol).
  Notation erun := (erun crc pol).

  Definition EInv (st : estate) : Prop := exists es, Inv (e_s st) es /\ e_mem st = replay es.

  Lemma EInv_init : EInv einit.
  Proof. exists []. split; [apply Inv_init|reflexivity]. Qed.

  Lemma EInv_recover st : EInv st -> recover (w_file (s_w (e_s st))) = Some (e_mem st).
  Proof. intros (es & HI & Hm). unfold WalWriter.recover. rewrite (Inv_read _ _ HI), Hm. reflexivity. Qed.

  Lemma replay_app es qs : replay (es ++ qs) = fold_left apply_payload qs (replay es).
  Proof. unfold replay. apply fold_left_app. Qed.

  (* every engine step: refuse when degraded; nothing to log, no effect; otherwise ONE writer call
     with op_payloads, and the live map moves only when it is acknowledged *)
  Definition noop_res (op : eop) : eres := match op with OInsert _ _ _ => EFail | _ => ENoop end.

  Lemma estep_eq st op orc :
    estep st op orc =
    if e_degraded st then (st, EFail, orc) else
    match op_payloads st op with
    | [] => (st, noop_res op, orc)
    | ps => match append_batch (e_s st) ps orc with
            | (s1, Failed _, o) => (mkE s1 (e_mem st) false, EFail, o)
            | (s1, Acked, o) => (mkE s1 (fold_left apply_payload ps (e_mem st)) false, EOk, o)
            end
    end.
  Proof.
    unfold WalWriter.estep, estep_gen, insert_gen, logged.
    destruct op as [id c body|id|ids|id body]; cbn [op_payloads noop_res];
      destruct (e_degraded st); try reflexivity.
    - destruct (preflight_rejects c) eqn:P; [reflexivity|]. apply negb_false_iff in P.
      rewrite P, append_as_batch. reflexivity.
    - destruct (is_some _); [rewrite append_as_batch|]; reflexivity.
    - destruct (filter _ ids); reflexivity.
    - destruct (is_some _); [rewrite append_as_batch|]; reflexivity.
  Qed.

  Lemma estep_shape st op orc st' r o :
    estep st op orc = (st', r, o) ->
    (r <> EOk /\ st' = st /\ o = orc) \/
    (e_degraded st = false /\ op_payloads st op <> [] /\
     exists s1 wr, append_batch (e_s st) (op_payloads st op) orc = (s1, wr, o) /\
       ((wr = Acked /\ r = EOk /\ st' = mkE s1 (fold_left apply_payload (op_payloads st op) (e_mem st)) false) \/
        (is_failed wr = true /\ r = EFail /\ st' = mkE s1 (e_mem st) false))).
  Proof.
    rewrite estep_eq. destruct (e_degraded st) eqn:D.
    { intro H. injection H as <- <- <-. left. split; [discriminate|auto]. }
    destruct (op_payloads st op) as [|p ps] eqn:EP.
    { intro H. injection H as <- <- <-. left. split; [destruct op; discriminate|auto]. }
    cbv zeta. destruct (append_batch (e_s st) (p :: ps) orc) as [[s1 wr] o1] eqn:A. intro H.
    right. split; [reflexivity|]. split; [discriminate|]. exists s1, wr.
    destruct wr; injection H as <- <- <-; (split; [reflexivity|]); [left|right]; auto.
  Qed.

  (* an engine operation that does not return Ok changes neither the live map nor what a restart
     recovers; one that returns Ok keeps "restart recovers exactly the live map" *)
  Theorem engine_failure_atomic st op orc st' r o :
    EInv st -> Forall wfp (op_payloads st op) ->
    estep st op orc = (st', r, o) -> e_known st op orc = false ->
    EInv st' /\
    (r <> EOk -> e_mem st' = e_mem st /\
                 recover (w_file (s_w (e_s st'))) = recover (w_file (s_w (e_s st)))).
  Proof.
    intros HE Hps H Hk. pose proof HE as (es & HI & Hm).
    destruct (estep_shape _ _ _ _ _ _ H) as [(Hr & -> & _)|(D & Hne & s1 & wr & A & [(-> & -> & ->)|(Hf & -> & ->)])].
    - split; [exact HE|]. auto.
    - destruct (batch_step _ _ _ _ _ _ _ HI Hps A) as (j & HI1 & Ha & _).
      rewrite (Ha eq_refl) in HI1. split.
      + exists (es ++ op_payloads st op). split; [exact HI1|]. cbn [e_mem]. now rewrite replay_app, Hm.
      + intro C. congruence.
    - unfold WalWriter.e_known in Hk. rewrite D in Hk. cbn [negb andb] in Hk.
      destruct (batch_step _ _ _ _ _ _ _ HI Hps A) as (j & HI1 & _ & Hz).
      rewrite (Hz Hf Hk), app_nil_r in HI1.
      assert (HE' : EInv (mkE s1 (e_mem st) false)) by (exists es; split; [exact HI1|exact Hm]).
      split; [exact HE'|]. intros _. split; [reflexivity|].
      rewrite (EInv_recover _ HE'), (EInv_recover _ HE). reflexivity.
  Qed.

  Lemma m_get_remove id i m : m_get id (m_remove i m) = if i =? id then None else m_get id m.
  Proof.
    induction m as [|[k v] m IH]; cbn [m_remove filter m_get fst].
    - now destruct (i =? id).
    - destruct (N.eqb_spec k i) as [E|E]; cbn [negb].
      + subst. fold (m_remove i m). rewrite IH. destruct (N.eqb_spec i id); reflexivity.
      + cbn [m_get]. fold (m_remove i m). rewrite IH.
        destruct (N.eqb_spec k id) as [E2|E2]; [|reflexivity].
        subst. destruct (N.eqb_spec i id); [congruence|reflexivity].
  Qed.

  Lemma m_get_set id i v m : m_get id (m_set i v m) = if i =? id then Some v else m_get id m.
  Proof.
    unfold m_set. cbn [m_get]. destruct (N.eqb_spec i id) as [E|E]; [reflexivity|].
    rewrite m_get_remove. destruct (N.eqb_spec i id); [congruence|reflexivity].
  Qed.

  Lemma apply_payload_other m p t i id :
    dec p = Some (t, i) -> i <> id -> m_get id (apply_payload m p) = m_get id m.
  Proof.
    intros Hd Hne. apply N.eqb_neq in Hne. unfold apply_payload. rewrite Hd.
    destruct t as [|[t|t|]]; try reflexivity.
    - now rewrite m_get_set, Hne.
    - destruct t; try reflexivity.
      destruct (m_get i m) as [[b u]|]; [|reflexivity]. now rewrite m_get_set, Hne.
    - now rewrite m_get_remove, Hne.
  Qed.

  Lemma dec_enc t i body : t < 4294967296 -> i < 18446744073709551616 -> dec (enc t i body) = Some (t, i).
  Proof.
    intros Ht Hi. unfold dec, enc.
    rewrite (take_to_le 4), (take_to_le 8), (le_n_to_le 4 t), (le_n_to_le 8 i) by first [exact Ht|exact Hi].
    reflexivity.
  Qed.

  Definition id_ok (i : N) : Prop := i < 18446744073709551616.

  Lemma op_payloads_ids st op p :
    Forall id_ok (op_ids op) -> In p (op_payloads st op) ->
    exists t i, dec p = Some (t, i) /\ In i (op_ids op).
  Proof.
    intros Hok Hin. rewrite Forall_forall in Hok.
    assert (E : forall t i body, t < 4294967296 -> In i (op_ids op) ->
                exists t' i', dec (enc t i body) = Some (t', i') /\ In i' (op_ids op)).
    { intros t i body Ht Hi. exists t, i. split; [apply dec_enc; [exact Ht|apply Hok, Hi]|exact Hi]. }
    destruct op as [id c body|id|ids|id body]; cbn [op_payloads op_ids] in *.
    - destruct (preflight_rejects c); [destruct Hin|]. destruct Hin as [<-|[]]. apply E; [reflexivity|now left].
    - destruct (is_some _); [|destruct Hin]. destruct Hin as [<-|[]]. apply E; [reflexivity|now left].
    - apply in_map_iff in Hin. destruct Hin as (i & <- & Hi). apply filter_In in Hi.
      apply E; [reflexivity|apply Hi].
    - destruct (is_some _); [|destruct Hin]. destruct Hin as [<-|[]]. apply E; [reflexivity|now left].
  Qed.

  Lemma fold_apply_other ps : forall m id,
    (forall p, In p ps -> exists t i, dec p = Some (t, i) /\ i <> id) ->
    m_get id (fold_left apply_payload ps m) = m_get id m.
  Proof.
    induction ps as [|p ps IH]; intros m id H; [reflexivity|]. cbn [fold_left].
    rewrite IH by (intros q Hq; apply H; now right).
    destruct (H p (or_introl eq_refl)) as (t & i & Hd & Hne). eapply apply_payload_other; eauto.
  Qed.

  (* whatever happens to an operation on the ids it names (success, failure, even the recorded
     double fault), every OTHER id keeps its live value and its recovered value *)
  Theorem others_untouched st op orc st' r o id :
    EInv st -> Forall wfp (op_payloads st op) -> Forall id_ok (op_ids op) ->
    estep st op orc = (st', r, o) -> ~ In id (op_ids op) ->
    m_get id (e_mem st') = m_get id (e_mem st) /\
    exists m m', recover (w_file (s_w (e_s st))) = Some m /\ recover (w_file (s_w (e_s st'))) = Some m' /\
                 m_get id m' = m_get id m.
  Proof.
    intros HE Hps Hok H Hid. pose proof HE as (es & HI & Hm).
    (* both maps move by a prefix of op_payloads, none of which names id *)
    assert (Hoth : forall j m, m_get id (fold_left apply_payload (firstn j (op_payloads st op)) m) = m_get id m).
    { intros j m. apply fold_apply_other. intros p Hp. apply in_firstn in Hp.
      destruct (op_payloads_ids st op p Hok Hp) as (t & i & Hd & Hi).
      exists t, i. split; [exact Hd|]. intro C. subst. contradiction. }
    destruct (estep_shape _ _ _ _ _ _ H) as [(Hr & -> & _)|(D & Hne & s1 & wr & A & Hcase)].
    - split; [reflexivity|]. exists (e_mem st), (e_mem st). rewrite (EInv_recover _ HE). auto.
    - destruct (batch_step _ _ _ _ _ _ _ HI Hps A) as (j & HI1 & Ha & _).
      assert (Hrec : recover (w_file (s_w s1)) = Some (fold_left apply_payload (firstn j (op_payloads st op)) (e_mem st))).
      { unfold WalWriter.recover. rewrite (Inv_read _ _ HI1), replay_app, Hm. reflexivity. }
      split.
      + destruct Hcase as [(-> & -> & ->)|(Hf & -> & ->)]; cbn [e_mem]; [|reflexivity].
        rewrite <- (firstn_all (op_payloads st op)). apply Hoth.
      + eexists _, _. rewrite (EInv_recover _ HE). split; [reflexivity|].
        destruct Hcase as [(-> & -> & ->)|(Hf & -> & ->)]; cbn [e_s]; (split; [exact Hrec|apply Hoth]).
  Qed.

  (* while no call falls into the recorded class, a restart recovers exactly the live map (EInv_recover) *)
  Fixpoint e_any_known (st : estate) (ops : list eop) (orc : oracle) : bool :=
    match ops with
    | [] => false
    | op :: r =>
        e_known st op orc || (let '(st1, _, orc1) := estep st op orc in e_any_known st1 r orc1)
    end.

  Fixpoint e_all_wf (st : estate) (ops : list eop) (orc : oracle) : Prop :=
    match ops with
    | [] => True
    | op :: r =>
        Forall wfp (op_payloads st op) /\
        (let '(st1, _, orc1) := estep st op orc in e_all_wf st1 r orc1)
    end.

  Theorem engine_history ops : forall st orc st' rs o,
    EInv st -> e_all_wf st ops orc -> e_any_known st ops orc = false ->
    erun st ops orc = (st', rs, o) -> EInv st'.
  Proof.
    induction ops as [|op ops IH]; intros st orc st' rs o HE Hwf Hk H; cbn [WalWriter.erun] in H.
    - inversion H; subst. exact HE.
    - cbn [e_all_wf e_any_known] in Hwf, Hk. destruct Hwf as [Hw1 Hw2].
      apply orb_false_iff in Hk. destruct Hk as [Hk1 Hk2].
      destruct (estep st op orc) as [[st1 r1] o1] eqn:E1.
      destruct (erun st1 ops o1) as [[st2 rs2] o2] eqn:E2. inversion H; subst; clear H.
      destruct (engine_failure_atomic _ _ _ _ _ _ HE Hw1 E1 Hk1) as [HE1 _].
      eapply IH; eauto.
  Qed.
End WriterProofs.
