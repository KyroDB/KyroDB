(* Invariants of the cache operations of Model/QCache.v (C07, C20 size bound). *)
From Coq Require Import QArith Qminmax Qround Qabs List NArith ZArith Bool Arith Lqa Lia.
From Kyro Require Import Model.QCache Proofs.ListFacts Proofs.QCacheProofs.
Import ListNotations.
Open Scope Q_scope.

(* every entry is indexed under each of its documents, except possibly row `ex` *)
Definition Complete (ex : option N) (es : list entry) (ridx : list (N * list key)) : Prop :=
  forall e id, In e es -> In id (e_ids e) -> Some id <> ex -> In (e_key e) (rget ridx id).

(* `ex` is the row that invalidate_doc has taken out before it removes the row's entries *)
Definition CInvx (ex : option N) (s : state) : Prop :=
  NoDup (keys (s_entries s)) /\
  Complete ex (s_entries s) (s_ridx s) /\
  (forall e, In e (s_entries s) -> e_qkey e = quantise (e_query e)).

Definition CInv : state -> Prop := CInvx None.

Lemma CInv_nil g : CInv (mkState [] g []).
Proof. split; [constructor|]. split; [intros e id H; inversion H|intros e H; inversion H]. Qed.

Lemma CInv_touch mk s : CInv s -> CInv (mkState (touch mk (s_entries s)) (s_gen s) (s_ridx s)).
Proof.
  intros [Hnd [Hc Hq]]. split; [apply nodup_touch; exact Hnd|]. split.
  - intros e id He Hid Hex. apply Hc; auto. apply (touch_in _ _ _ He).
  - intros e He. apply Hq. apply (touch_in _ _ _ He).
Qed.

(* the invariant together with a property of every entry: an operation is specified by what it makes of this *)
Definition Entries (P : entry -> Prop) (s : state) : Prop :=
  CInv s /\ forall e, In e (s_entries s) -> P e.

Lemma CInv_Entries s : CInv s -> Entries (fun _ => True) s.
Proof. intro H. split; [exact H | auto]. Qed.

Lemma Entries_impl (P Q : entry -> Prop) s : (forall e, P e -> Q e) -> Entries P s -> Entries Q s.
Proof. intros H [HC HP]. split; [exact HC | intros e He; apply H, HP, He]. Qed.

Lemma remove_entry_entries s k : s_entries (fst (remove_entry s k)) = remove_key k (s_entries s).
Proof.
  unfold remove_entry. destruct (find_entry k (s_entries s)) eqn:E; cbn [fst s_entries]; [reflexivity|].
  symmetry. apply remove_key_none. exact E.
Qed.

Lemma remove_entry_gen s k : s_gen (fst (remove_entry s k)) = s_gen s.
Proof. unfold remove_entry. destruct (find_entry k (s_entries s)); reflexivity. Qed.

Lemma remove_entry_CInvx ex s k : CInvx ex s -> CInvx ex (fst (remove_entry s k)).
Proof.
  intros [Hnd [Hc Hq]]. unfold remove_entry.
  destruct (find_entry k (s_entries s)) eqn:E; cbn [fst]; [|repeat split; assumption].
  split; [apply nodup_remove_key, Hnd|]. split.
  - intros e0 id He Hid Hex. apply remove_key_in in He. destruct He as [He Hk].
    apply unindex_ids_spec. split; [apply Hc; assumption|]. intros [H _]. contradiction.
  - intros e0 He. apply remove_key_in in He. apply Hq. tauto.
Qed.

Lemma remove_entries_fold ks : forall s,
  fst (remove_entries s ks) = fold_left (fun s k => fst (remove_entry s k)) ks s.
Proof.
  induction ks as [|k ks IH]; intro s; cbn [remove_entries fold_left]; [reflexivity|].
  rewrite <- IH. destruct (remove_entry s k) as [s1 b]. cbn [fst]. destruct (remove_entries s1 ks). reflexivity.
Qed.

Lemma remove_entries_entries ks : forall s,
  s_entries (fst (remove_entries s ks)) =
  filter (fun e => negb (key_mem (e_key e) ks)) (s_entries s).
Proof.
  induction ks as [|k ks IH]; intro s.
  - symmetry. apply filter_all. reflexivity.
  - rewrite remove_entries_fold. cbn [fold_left]. rewrite <- remove_entries_fold, IH, remove_entry_entries.
    unfold remove_key. induction (s_entries s) as [|x l IHl]; cbn [filter]; [reflexivity|].
    unfold key_mem at 2. cbn [existsb]. fold (key_mem (e_key x) ks).
    destruct (key_eqb (e_key x) k) eqn:Ek; cbn [negb orb].
    + exact IHl.
    + cbn [filter]. destruct (negb (key_mem (e_key x) ks)); rewrite IHl; reflexivity.
Qed.

Lemma remove_entries_gen ks s : s_gen (fst (remove_entries s ks)) = s_gen s.
Proof.
  rewrite remove_entries_fold. apply (fold_left_inv _ (fun s' => s_gen s' = s_gen s)); [|reflexivity].
  intros a k <-. apply remove_entry_gen.
Qed.

Lemma remove_entries_in ks s e :
  In e (s_entries (fst (remove_entries s ks))) <-> In e (s_entries s) /\ ~ In (e_key e) ks.
Proof. rewrite remove_entries_entries, filter_In, negb_true_iff, <- key_mem_in, not_true_iff_false. tauto. Qed.

Lemma remove_entries_CInvx ex ks s : CInvx ex s -> CInvx ex (fst (remove_entries s ks)).
Proof. rewrite remove_entries_fold. apply fold_left_inv. intros a k. apply remove_entry_CInvx. Qed.

Lemma doc_remove_spec P s id :
  Entries P s -> Entries (fun e => P e /\ ~ In id (e_ids e)) (fst (doc_remove s id)).
Proof.
  intros [[Hnd [Hc Hq]] HP]. unfold doc_remove.
  destruct (rget (s_ridx s) id) as [|k0 ks0] eqn:Er.
  - cbn [fst]. split; [repeat split; assumption|].
    intros e He. split; [exact (HP e He)|]. intro Hid.
    assert (Hin : In (e_key e) (rget (s_ridx s) id)) by (apply Hc; auto; discriminate).
    rewrite Er in Hin. contradiction.
  - set (ks := k0 :: ks0) in *.
    set (s0 := mkState (s_entries s) (s_gen s) (rdel (s_ridx s) id)).
    assert (H0 : CInvx (Some id) s0).
    { split; [exact Hnd|split; [|exact Hq]]. intros e id' He Hid Hex. cbn [s0 s_entries s_ridx] in *.
      rewrite rget_rdel. destruct (N.eqb_spec id id') as [->|_]; [congruence|]. apply Hc; auto. discriminate. }
    destruct (remove_entries_CInvx (Some id) (key_dedup ks) s0 H0) as [Hnd1 [Hc1 Hq1]].
    assert (Hsub : forall e, In e (s_entries (fst (remove_entries s0 (key_dedup ks)))) ->
                             In e (s_entries s) /\ ~ In id (e_ids e)).
    { intros e He. apply remove_entries_in in He. destruct He as [He Hk]. split; [exact He|].
      intro Hid. apply Hk, key_dedup_in. rewrite <- Er. apply Hc; auto. discriminate. }
    split; [|intros e He; destruct (Hsub e He); auto].
    split; [exact Hnd1|split; [|exact Hq1]].
    intros e id' He Hid _. apply Hc1; auto.
    intro E. inversion E; subst. destruct (Hsub e He) as [_ Hn]. contradiction.
Qed.

Lemma doc_remove_gen s id : s_gen (fst (doc_remove s id)) = s_gen s.
Proof. unfold doc_remove. destruct (rget (s_ridx s) id); [reflexivity|]. rewrite remove_entries_gen. reflexivity. Qed.

Lemma invalidate_doc_spec P s id :
  Entries P s -> Entries (fun e => P e /\ ~ In id (e_ids e)) (fst (invalidate_doc s id)).
Proof. exact (doc_remove_spec P (bump s) id). Qed.

Lemma insert_hits_false pre dle x e :
  insert_hits pre dle x e = false ->
  (e_kreq e <= length (e_results e))%nat /\ length (e_query e) = length x /\
  exists w, worst (e_results e) = Some w /\ (pre (e_query e) x w = false \/ dle (e_query e) x w = false).
Proof.
  unfold insert_hits. destruct (Nat.ltb_spec (length (e_results e)) (e_kreq e)); [discriminate|].
  destruct (Nat.eqb_spec (length (e_query e)) (length x)); cbn [negb]; [|discriminate].
  destruct (worst (e_results e)) as [w|]; [|discriminate]. intro Hw.
  split; [assumption|]. split; [assumption|]. exists w. split; [reflexivity|].
  destruct (pre (e_query e) x w); auto.
Qed.

Lemma insert_remove_spec P pre dle s x :
  Entries P s -> Entries (fun e => P e /\ insert_hits pre dle x e = false) (fst (insert_remove pre dle s x)).
Proof.
  intros [H HP]. unfold insert_remove. split; [apply remove_entries_CInvx, H|].
  intros e He. apply remove_entries_in in He. destruct He as [He Hk]. split; [exact (HP e He)|].
  destruct (insert_hits pre dle x e) eqn:Eh; [|reflexivity].
  elim Hk. apply in_map, filter_In. split; assumption.
Qed.

Lemma insert_remove_gen pre dle s x : s_gen (fst (insert_remove pre dle s x)) = s_gen s.
Proof. apply remove_entries_gen. Qed.

Lemma invalidate_for_insert_gen_spec P pre dle s x :
  Entries P s ->
  Entries (fun e => P e /\ insert_hits pre dle x e = false) (fst (invalidate_for_insert_gen pre dle s x)).
Proof. exact (insert_remove_spec P pre dle (bump s) x). Qed.

Definition new_entry (scope : N) (q : vec) (rs : list result) (kreq : nat) : entry :=
  mkEntry scope (quantise q) q (Nat.max kreq (length rs)) rs.

Definition evicted (cfg : config) (s : state) (es1 : list entry) (ridx1 : list (N * list key)) : Prop :=
  (es1 = s_entries s /\ ridx1 = s_ridx s /\ (length (s_entries s) < c_cap cfg)%nat) \/
  (exists v, s_entries s = es1 ++ [v] /\ ridx1 = unindex_ids (s_ridx s) (e_key v) (result_ids (e_results v))) \/
  (s_entries s = [] /\ es1 = [] /\ ridx1 = s_ridx s).

(* the four things `store` can do: skip; replace the entry of the key; only touch it (it was stored for a
   larger k); evict if full and insert in front *)
Lemma store_cases cfg s scope q rs kreq expected :
  let r := store cfg s scope q rs kreq expected in
  let qk := (scope, quantise q) in
  let ne := new_entry scope q rs kreq in
  r = (s, SkippedGeneration) \/
  (snd r <> SkippedGeneration /\ s_gen (fst r) = s_gen s /\
   ((exists old, find_entry qk (s_entries s) = Some old /\
       s_entries (fst r) = ne :: remove_key qk (s_entries s) /\
       s_ridx (fst r) = index_ids (unindex_ids (s_ridx s) qk (result_ids (e_results old))) qk (result_ids rs)) \/
    ((exists old, find_entry qk (s_entries s) = Some old) /\
       s_entries (fst r) = touch qk (s_entries s) /\ s_ridx (fst r) = s_ridx s) \/
    (find_entry qk (s_entries s) = None /\ exists es1 ridx1, evicted cfg s es1 ridx1 /\
       s_entries (fst r) = ne :: es1 /\ s_ridx (fst r) = index_ids ridx1 qk (result_ids rs)))).
Proof.
  cbn zeta. destruct (store cfg s scope q rs kreq expected) as [s' out] eqn:E. cbn [fst snd]. unfold store in E.
  destruct (match expected with Some g => negb (N.eqb (s_gen s) g) | None => false end); [left; symmetry; exact E|right].
  destruct (find_entry (scope, quantise q) (s_entries s)) as [old|].
  - destruct (Nat.leb (e_kreq old) (Nat.max kreq (length rs))); inversion E; subst s' out;
      cbn [s_entries s_gen s_ridx]; (split; [discriminate|]); (split; [reflexivity|]); [left|right; left]; eauto.
  - destruct (if Nat.leb (c_cap cfg) (length (s_entries s)) then _ else _) as [[es1 ridx1] ev] eqn:Eev.
    assert (Hev : evicted cfg s es1 ridx1).
    { destruct (Nat.leb (c_cap cfg) (length (s_entries s))) eqn:El.
      - pose proof (drop_last_spec (s_entries s)) as Hd.
        destruct (drop_last (s_entries s)) as [es' [v|]]; inversion Eev; subst.
        + right; left. eauto.
        + right; right. tauto.
      - apply Nat.leb_gt in El. inversion Eev; subst. left. auto. }
    inversion E; subst s' out. cbn [s_entries s_gen s_ridx]. split; [discriminate|]. split; [reflexivity|].
    right; right. split; [reflexivity|]. eauto.
Qed.

Lemma evicted_inv cfg s es1 ridx1 :
  NoDup (keys (s_entries s)) -> Complete None (s_entries s) (s_ridx s) -> evicted cfg s es1 ridx1 ->
  (forall e, In e es1 -> In e (s_entries s)) /\ NoDup (keys es1) /\ Complete None es1 ridx1.
Proof.
  intros Hnd Hc [(-> & -> & _)|[(v & Hd & ->)|(_ & -> & ->)]].
  - auto.
  - (* the evicted entry v is the only one of its key, so removing its key from the index rows hurts nobody else *)
    unfold keys in Hnd. rewrite Hd, map_app in Hnd. cbn [map] in Hnd.
    pose proof (NoDup_remove_1 _ _ _ Hnd) as Hnd1. pose proof (NoDup_remove_2 _ _ _ Hnd) as Hv.
    rewrite app_nil_r in Hnd1, Hv.
    assert (Hsub : forall e, In e es1 -> In e (s_entries s)) by (intros e He; rewrite Hd; apply in_or_app; auto).
    split; [exact Hsub|]. split; [exact Hnd1|].
    intros e id He Hid _. apply unindex_ids_spec. split; [apply Hc; auto; discriminate|].
    intros [Hk _]. apply Hv. rewrite <- Hk. apply in_map, He.
  - split; [intros e []|]. split; [constructor|]. intros e id [].
Qed.

Lemma CInv_cons scope q rs kreq es ridx g :
  NoDup (keys es) -> ~ In (scope, quantise q) (keys es) -> Complete None es ridx ->
  (forall e, In e es -> e_qkey e = quantise (e_query e)) ->
  CInv (mkState (new_entry scope q rs kreq :: es) g (index_ids ridx (scope, quantise q) (result_ids rs))).
Proof.
  intros Hnd Hk Hc Hq. split; [constructor; assumption|]. split.
  - intros e id [<-|He] Hid _; apply index_ids_spec; [right|left; apply Hc; auto; discriminate].
    split; [reflexivity|apply result_ids_in, Hid].
  - intros e [<-|He]; [reflexivity|apply Hq, He].
Qed.

Lemma store_spec P cfg s scope q rs kreq expected :
  Entries P s -> P (new_entry scope q rs kreq) -> Entries P (fst (store cfg s scope q rs kreq expected)).
Proof.
  intros [[Hnd [Hc Hq]] HP] Hnew. set (qk := (scope, quantise q)).
  destruct (store_cases cfg s scope q rs kreq expected) as [->|(_ & _ & Hcases)];
    [cbn [fst]; split; [repeat split; assumption|exact HP]|].
  cbn zeta in Hcases. fold qk in Hcases. unfold Entries, CInv, CInvx.
  destruct Hcases as [(old & Ef & -> & ->)|[(_ & -> & ->)|(Ef & es1 & ridx1 & Hev & -> & ->)]].
  - destruct (remove_entry_CInvx None s qk (conj Hnd (conj Hc Hq))) as [Hnd1 [Hc1 Hq1]].
    unfold remove_entry in Hnd1, Hc1, Hq1. rewrite Ef in Hnd1, Hc1, Hq1.
    split; [|intros e [<-|He]; [exact Hnew|apply HP; apply remove_key_in in He; tauto]].
    exact (CInv_cons scope q rs kreq _ _ (s_gen s) Hnd1 (not_in_keys_remove qk _) Hc1 Hq1).
  - split; [apply (CInv_touch qk s); repeat split; assumption|]. intros e He. exact (HP e (touch_in _ _ _ He)).
  - destruct (evicted_inv cfg s es1 ridx1 Hnd Hc Hev) as [Hsub [Hnd1 Hc1]].
    split; [|intros e [<-|He]; [exact Hnew|apply HP, Hsub, He]].
    apply (CInv_cons scope q rs kreq es1 ridx1 (s_gen s) Hnd1); [|exact Hc1|intros e He; apply Hq, Hsub, He].
    intro Hin. apply in_map_iff in Hin. destruct Hin as [y [Hy1 Hy2]].
    exact (find_entry_none _ _ Ef y (Hsub y Hy2) Hy1).
Qed.

Definition sim_ok (cfg : config) (scope : N) (q : vec) (k : nat) (c : entry) : Prop :=
  e_scope c = scope /\ (k <= e_kreq c)%nat /\ c_thr cfg * c_thr cfg < cos_ssq q (e_query c).

Definition sim_good cfg (es : list entry) scope q k (mk : key) : Prop :=
  exists c, In c es /\ e_key c = mk /\ sim_ok cfg scope q k c.

Lemma sim_step_cases scope qk q k best c :
  sim_step scope qk q k best c = best \/
  (sim_step scope qk q k best c = (cos_ssq q (e_query c), Some (e_key c)) /\
   e_scope c = scope /\ (k <= e_kreq c)%nat /\ fst best < cos_ssq q (e_query c)).
Proof.
  unfold sim_step. destruct (N.eqb_spec (e_scope c) scope); cbn [negb orb]; [|auto].
  destruct (key_eqb (e_key c) qk); [auto|]. destruct (Nat.ltb_spec (e_kreq c) k); [auto|].
  destruct (Qltb_spec (fst best) (cos_ssq q (e_query c))); auto.
Qed.

Lemma sim_fold_inv cfg es scope qk q k (l : list entry) : forall best,
  (forall c, In c l -> In c es) ->
  c_thr cfg * c_thr cfg <= fst best ->
  (forall mk, snd best = Some mk -> sim_good cfg es scope q k mk) ->
  forall mk, snd (fold_left (sim_step scope qk q k) l best) = Some mk -> sim_good cfg es scope q k mk.
Proof.
  induction l as [|c l IH]; intros best Hl Hb Hs mk H; cbn [fold_left] in H; [apply Hs; exact H|].
  apply (IH _ (fun c' Hc' => Hl c' (or_intror Hc'))) in H; [exact H| |];
    destruct (sim_step_cases scope qk q k best c) as [->|(-> & Es & Ek & Elt)]; try assumption; cbn [fst snd].
  - lra.
  - intros mk' Hm. inversion Hm; subst. exists c. split; [apply Hl; left; reflexivity|].
    split; [reflexivity|]. repeat split; auto. lra.
Qed.

Lemma find_similar_spec cfg es scope qk q k mk :
  find_similar cfg es scope qk q k = Some mk -> sim_good cfg es scope q k mk.
Proof.
  unfold find_similar. intro H.
  apply (sim_fold_inv cfg es scope qk q k _ _ (fun c Hc => in_firstn _ _ _ Hc)) in H; [exact H| |].
  - cbn [fst]. lra.
  - cbn [snd]. discriminate.
Qed.

Lemma get_scoped_touch cfg s scope q k :
  fst (get_scoped cfg s scope q k) = s \/
  exists mk, fst (get_scoped cfg s scope q k) = mkState (touch mk (s_entries s)) (s_gen s) (s_ridx s).
Proof.
  unfold get_scoped. destruct (find_entry _ (s_entries s)) as [e|].
  - destruct (Nat.leb k (e_kreq e)); cbn [fst]; eauto.
  - destruct (find_similar cfg (s_entries s) scope _ q k) as [mk|]; [|auto].
    destruct (find_entry mk _) as [e|]; [destruct (Nat.ltb (e_kreq e) k)|]; cbn [fst]; eauto.
Qed.

Lemma get_scoped_entries P cfg s scope q k : Entries P s -> Entries P (fst (get_scoped cfg s scope q k)).
Proof.
  intros [HC HP]. destruct (get_scoped_touch cfg s scope q k) as [->|[mk ->]]; [split; assumption|].
  split; [apply CInv_touch, HC | intros e He; exact (HP e (touch_in _ _ _ He))].
Qed.

Lemma get_scoped_length cfg s scope q k :
  (length (s_entries (fst (get_scoped cfg s scope q k))) <= length (s_entries s))%nat.
Proof. destruct (get_scoped_touch cfg s scope q k) as [->|[mk ->]]; [reflexivity | apply touch_length]. Qed.

Definition served (cfg : config) (s : state) (scope : N) (q : vec) (k : nat) (r : list result) : Prop :=
  exists e, In e (s_entries s) /\ e_scope e = scope /\ (k <= e_kreq e)%nat /\
            r = firstn k (e_results e) /\
            (e_qkey e = quantise q \/ c_thr cfg * c_thr cfg < cos_ssq q (e_query e)).

Lemma get_scoped_served cfg s scope q k r :
  CInv s -> snd (get_scoped cfg s scope q k) = Some r -> served cfg s scope q k r.
Proof.
  intros [Hnd _]. unfold get_scoped. set (qk := (scope, quantise q)).
  destruct (find_entry qk (s_entries s)) as [e|] eqn:Ef.
  - destruct (find_entry_some _ _ _ Ef) as [He Hk].
    destruct (Nat.leb k (e_kreq e)) eqn:Ek; cbn [snd]; [|discriminate].
    intro Hr. inversion Hr; subst. exists e. apply Nat.leb_le in Ek.
    unfold e_key, qk in Hk. inversion Hk. repeat split; auto.
  - destruct (find_similar cfg (s_entries s) scope qk q k) as [mk|] eqn:Es; [|discriminate].
    destruct (find_similar_spec _ _ _ _ _ _ _ Es) as [c [Hcin [<- [Hsc [Hkk Hsim]]]]].
    (* after the touch the matched key is found again, and it is the entry the scan saw *)
    rewrite (find_entry_touch _ _ _ (find_entry_nodup _ _ Hnd Hcin)), (proj2 (Nat.ltb_ge _ _) Hkk). cbn [snd].
    intro Hr. inversion Hr; subst. exists c. repeat split; auto.
Qed.

Lemma step_fst cfg s o :
  fst (step cfg s o) =
  match o with
  | OGet sc q k => fst (get_scoped cfg s sc q k)
  | OInsert sc q rs kr => fst (store cfg s sc q rs kr None)
  | OInsertIfGen sc q rs kr back => fst (store cfg s sc q rs kr (Some (s_gen s - back)%N))
  | OInvDoc id => fst (invalidate_doc s id)
  | OInvInsert x m => fst (invalidate_for_insert s x m)
  | OClear => clear s
  | OLen | OGen => s
  end.
Proof. destruct o; cbn [step]; try apply fst_let; reflexivity. Qed.

Lemma step_CInv cfg s o : CInv s -> CInv (fst (step cfg s o)).
Proof.
  intro H. rewrite step_fst. destruct o; try exact H; apply CInv_Entries in H.
  - apply (get_scoped_entries _ cfg s scope q k H).
  - apply (store_spec _ cfg s scope q rs kreq None H I).
  - apply (store_spec _ cfg s scope q rs kreq _ H I).
  - apply (invalidate_doc_spec _ s id H).
  - apply (invalidate_for_insert_gen_spec _ _ _ s x H).
  - apply CInv_nil.
Qed.

Lemma run_state_inv cfg (P : state -> Prop) :
  (forall s o, P s -> P (fst (step cfg s o))) -> forall ops s, P s -> P (run_state cfg s ops).
Proof.
  intros H ops. induction ops as [|o ops IH]; intros s Hs; cbn [run_state]; [exact Hs|]. apply IH, H, Hs.
Qed.

Lemma run_state_CInv cfg ops : forall s, CInv s -> CInv (run_state cfg s ops).
Proof. apply run_state_inv. intros s o. apply step_CInv. Qed.

Lemma remove_entries_length ks s :
  (length (s_entries (fst (remove_entries s ks))) <= length (s_entries s))%nat.
Proof. rewrite remove_entries_entries. apply filter_length_le. Qed.

Lemma store_length cfg s scope q rs kreq expected :
  (1 <= c_cap cfg)%nat -> (length (s_entries s) <= c_cap cfg)%nat ->
  (length (s_entries (fst (store cfg s scope q rs kreq expected))) <= c_cap cfg)%nat.
Proof.
  intros Hcap Hlen.
  destruct (store_cases cfg s scope q rs kreq expected) as [->|(_ & _ & Hcases)]; [exact Hlen|].
  cbn zeta in Hcases.
  destruct Hcases as [(old & Ef & -> & _)|[(_ & -> & _)|(_ & es1 & ridx1 & Hev & -> & _)]]; cbn [length].
  - pose proof (remove_key_length_found _ _ _ Ef). lia.
  - pose proof (touch_length (scope, quantise q) (s_entries s)). lia.
  - destruct Hev as [(-> & _ & L)|[(v & Hd & _)|(_ & -> & _)]]; [lia| |cbn; lia].
    rewrite Hd, app_length in Hlen. cbn in Hlen. lia.
Qed.

Lemma step_length cfg s o :
  (1 <= c_cap cfg)%nat -> (length (s_entries s) <= c_cap cfg)%nat ->
  (length (s_entries (fst (step cfg s o))) <= c_cap cfg)%nat.
Proof.
  intros Hcap Hlen. rewrite step_fst. destruct o; try exact Hlen.
  - etransitivity; [apply get_scoped_length|exact Hlen].
  - apply store_length; assumption.
  - apply store_length; assumption.
  - unfold invalidate_doc, doc_remove. destruct (rget (s_ridx (bump s)) id); [exact Hlen|].
    etransitivity; [apply remove_entries_length|exact Hlen].
  - unfold invalidate_for_insert, invalidate_for_insert_gen, insert_remove.
    etransitivity; [apply remove_entries_length|exact Hlen].
  - cbn. lia.
Qed.

Theorem len_bound cfg ops : (1 <= c_cap cfg)%nat ->
  (length (s_entries (run_state cfg empty ops)) <= c_cap cfg)%nat.
Proof.
  intro Hcap. apply (run_state_inv cfg (fun s => (length (s_entries s) <= c_cap cfg)%nat)); [|cbn; lia].
  intros s o. apply step_length, Hcap.
Qed.
