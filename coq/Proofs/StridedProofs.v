(* C17 — lemmas about the strided-loop combinators of Model/Strided.v and the tactic that proves "every
   access of a generated kernel is in bounds" whatever the number of loops, the unroll factor or the lane
   width: it splits appends, enters each `strided` loop through strided_Forall (which hands over
   lo + k*step + c <= hi  for the iteration in question) and closes every  offset + width <= len  with lia. *)
From Coq Require Import NArith List Lia ZArith.
From Kyro Require Import Model.Strided.
Import ListNotations.
Open Scope N_scope.

Lemma strided_go_Forall (P : access -> Prop) c hi step body : forall fuel lo k0 base,
  lo = base + k0 * Npos step ->
  (forall k, base + k * Npos step + c <= hi -> Forall P (body (base + k * Npos step))) ->
  Forall P (strided_go fuel lo c hi step body).
Proof.
  induction fuel as [|f IH]; intros lo k0 base Hlo Hb; cbn [strided_go].
  - constructor.
  - destruct (lo + c <=? hi) eqn:E; [|constructor].
    apply N.leb_le in E. apply Forall_app. split.
    + subst lo. apply Hb. exact E.
    + apply (IH _ (k0 + 1) base); [subst lo; lia | exact Hb].
Qed.

Lemma strided_Forall (P : access -> Prop) lo c hi step body :
  (forall k, lo + k * Npos step + c <= hi -> Forall P (body (lo + k * Npos step))) ->
  Forall P (strided lo c hi step body).
Proof.
  intros H. unfold strided. apply (strided_go_Forall P c hi step body _ lo 0 lo); [lia | exact H].
Qed.

Lemma strided_end_go_spec c hi step : forall fuel lo, hi + 1 - lo <= N.of_nat fuel ->
  exists k, strided_end_go fuel lo c hi step = lo + k * Npos step /\ hi < lo + k * Npos step + c.
Proof.
  induction fuel as [|f IH]; intros lo Hf; cbn [strided_end_go].
  - exists 0. lia.
  - destruct (lo + c <=? hi) eqn:E.
    + destruct (IH (lo + Npos step)) as (k & Hk & Hd); [lia|].
      exists (k + 1). rewrite Hk. lia.
    + apply N.leb_gt in E. exists 0. lia.
Qed.

(* the index after a `while i + c <= hi { ..; i += step }` loop: lo plus a multiple of step, and the
   loop condition is false there *)
Lemma strided_end_spec lo c hi step :
  exists k, strided_end lo c hi step = lo + k * Npos step /\ hi < lo + k * Npos step + c.
Proof. apply strided_end_go_spec. lia. Qed.

(* 2^64 stays an opaque atom for lia (unfolding the literal makes certificate checking crawl) *)
Lemma two64_big : 4294967296 <= two64.
Proof. apply N.leb_le. vm_compute. reflexivity. Qed.

Lemma div_bounds a b : b <> 0 -> b * (a / b) <= a < b * (a / b) + b.
Proof.
  intros Hb. split; [apply N.mul_div_le; exact Hb|].
  rewrite <- N.mul_succ_r. apply N.mul_succ_div_gt. exact Hb.
Qed.

(* a quotient by a non-zero literal becomes a variable known by div_bounds only: lia sees no division *)
Ltac pose_divs :=
  repeat match goal with
  | |- context [?a / ?b] =>
      let q := fresh "q" in
      pose proof (div_bounds a b ltac:(discriminate)); set (q := a / b) in *; clearbody q
  end.

Ltac kill_strided_end :=
  repeat match goal with
  | |- context [strided_end ?a ?b ?c ?d] =>
      let k := fresh "k" in let Hk := fresh "Hk" in let Hd := fresh "Hd" in
      destruct (strided_end_spec a b c d) as (k & Hk & Hd);
      rewrite Hk in *; clear Hk
  end.

Ltac in_bounds_leaf :=
  unfold in_bounds; cbv beta iota zeta; pose_divs;
  lazymatch goal with
  | |- context [wsub] =>
      unfold wsub; pose proof two64_big;
      repeat match goal with |- context [?b <=? ?a] => destruct (N.leb_spec b a) end
  | _ => idtac
  end;
  lia.

Lemma Forall_dup {A} (P : A -> Prop) x l : Forall P (x :: l) -> Forall P (x :: x :: l).
Proof. intros H. constructor; [exact (Forall_inv H)|exact H]. Qed.

(* an access listed twice in a row (two operands read at the same offsets) is checked once *)
Ltac solve_accesses :=
  cbv zeta; kill_strided_end; pose_divs;
  repeat match goal with
  | |- Forall _ (_ ++ _) => apply Forall_app; split
  | |- Forall _ (strided _ _ _ _ _) => apply strided_Forall; intros ? ?; cbv zeta
  | |- Forall _ (?x :: ?x :: _) => apply Forall_dup
  | |- Forall _ (_ :: _) => constructor
  | |- Forall _ [] => constructor
  | |- in_bounds _ _ => in_bounds_leaf
  end.
