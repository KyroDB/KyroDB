(* Tenant index assignment (Model/Server.v: tmap_create = TenantIdMapper::load_or_create on a fresh
   data dir, tmap_ensure = ensure_tenant after the persisted map was loaded): indices stay dense and
   pairwise distinct, existing tenants keep their index when tenants are added, and a new tenant
   receives an index no existing tenant has. *)
From Coq Require Import List NArith ZArith Bool String Lia.
From Kyro Require Import Model.Server Proofs.ListFacts Proofs.ServerProofs.
Import ListNotations.
Open Scope N_scope.

Definition tlen (m : tmap) : N := N.of_nat (List.length m).
(* dense: every index is below the size of the map; injective: distinct tenants, distinct indices *)
Definition tm_ok (m : tmap) : Prop :=
  (forall t i, tm_get m t = Some i -> i < tlen m)
  /\ (forall t t' i, tm_get m t = Some i -> tm_get m t' = Some i -> t = t').

Lemma tm_get_app : forall m t i t',
  tm_get (m ++ [(t, i)]) t' = match tm_get m t' with Some x => Some x | None => if str_eqb t' t then Some i else None end.
Proof.
  induction m as [|[t0 i0] r IH]; intros t i t'; cbn; [reflexivity|].
  destruct (str_eqb t' t0); [reflexivity | apply IH].
Qed.
Lemma enumerate_length : forall l i, List.length (enumerate_from i l) = List.length l.
Proof. induction l as [|x l IH]; intro i; cbn; [reflexivity | rewrite IH; reflexivity]. Qed.
Lemma enumerate_get : forall l i t j, tm_get (enumerate_from i l) t = Some j ->
  i <= j /\ j < i + N.of_nat (List.length l) /\ nth_error l (N.to_nat (j - i)) = Some t.
Proof.
  induction l as [|x l IH]; intros i t j H; cbn in H; [discriminate|].
  destruct (str_eqb t x) eqn:E.
  - inversion H; subst j. apply str_eqb_eq in E. subst x. replace (i - i) with 0 by lia. cbn [List.length]. split; [lia|]. split; [lia|]. reflexivity.
  - apply IH in H. destruct H as [H1 [H2 H3]]. cbn [List.length]. split; [lia|]. split; [lia|].
    replace (N.to_nat (j - i)) with (S (N.to_nat (j - (i + 1)))) by lia. exact H3.
Qed.
Lemma tmap_create_ok : forall tids, tm_ok (tmap_create tids).
Proof.
  intro tids. unfold tmap_create, tm_ok, tlen. rewrite enumerate_length. split.
  - intros t i H. apply enumerate_get in H. lia.
  - intros t t' i H H'. apply enumerate_get in H. apply enumerate_get in H'.
    destruct H as [_ [_ H]]. destruct H' as [_ [_ H']]. congruence.
Qed.
Lemma tmap_ensure_stable : forall m t t' i, tm_get m t' = Some i -> tm_get (tmap_ensure m t) t' = Some i.
Proof.
  intros m t t' i H. unfold tmap_ensure. destruct (tm_get m t); [exact H|]. rewrite tm_get_app, H. reflexivity.
Qed.
Lemma tmap_ensure_fresh : forall m t, tm_get m t = None -> tm_get (tmap_ensure m t) t = Some (tlen m).
Proof. intros m t H. unfold tmap_ensure. rewrite H, tm_get_app, H, str_eqb_refl. reflexivity. Qed.
Lemma tm_get_app_inv : forall m t i t' j, tm_get (m ++ [(t, i)]) t' = Some j -> tm_get m t' = Some j \/ (t' = t /\ j = i).
Proof.
  intros m t i t' j H. rewrite tm_get_app in H. destruct (tm_get m t'); [left; exact H|].
  destruct (str_eqb t' t) eqn:E; [|discriminate]. apply str_eqb_eq in E. right. split; congruence.
Qed.
(* an old index is below the size of the map, so it is not the new entry's *)
Lemma tmap_ensure_ok : forall m t, tm_ok m -> tm_ok (tmap_ensure m t).
Proof.
  intros m t [Hb Hi]. unfold tmap_ensure. destruct (tm_get m t) eqn:E; [split; assumption|].
  unfold tm_ok, tlen in *. rewrite app_length, Nat.add_1_r, Nat2N.inj_succ. split.
  - intros t' i H. apply tm_get_app_inv in H. destruct H as [H|[_ ->]]; [apply Hb in H|]; lia.
  - intros t1 t2 i H1 H2. apply tm_get_app_inv in H1, H2. destruct H1 as [H1|[-> ->]], H2 as [H2|[-> E2]].
    + exact (Hi _ _ _ H1 H2).
    + apply Hb in H1. lia.
    + apply Hb in H2. lia.
    + reflexivity.
Qed.
Lemma tmap_ensure_all_ok : forall ts m, tm_ok m -> tm_ok (tmap_ensure_all m ts).
Proof. intro ts. apply fold_left_inv. intros m t. apply tmap_ensure_ok. Qed.
Lemma tmap_ensure_all_stable : forall ts m t' i, tm_get m t' = Some i -> tm_get (tmap_ensure_all m ts) t' = Some i.
Proof. intros ts m t' i. apply (fold_left_inv _ (fun m => tm_get m t' = Some i)). intros a t. apply tmap_ensure_stable. Qed.

Lemma restarts_ok : forall later m0, tm_ok m0 ->
  tm_ok (fold_left tmap_ensure_all later m0)
  /\ (forall t i, tm_get m0 t = Some i -> tm_get (fold_left tmap_ensure_all later m0) t = Some i).
Proof.
  intros later m0 H0.
  apply (fold_left_inv _ (fun m => tm_ok m /\ forall t i, tm_get m0 t = Some i -> tm_get m t = Some i)); [|auto].
  intros m l [Hok Hst]. split; [apply tmap_ensure_all_ok; exact Hok|].
  intros t i H. apply tmap_ensure_all_stable, Hst, H.
Qed.
