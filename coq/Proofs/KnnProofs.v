From Coq Require Import List NArith Bool Arith Lia Permutation Sorted.
From Kyro Require Import gen.SearchK_gen Model.F64Lite Model.Knn Proofs.ListFacts.
Import ListNotations.

Lemma NoDup_firstn : forall (A : Type) k (l : list A), NoDup l -> NoDup (firstn k l).
Proof.
  intros A k l. revert k. induction l as [|a l IH]; intros k H; destruct k; cbn [firstn]; try constructor.
  - inversion H; subst. intro Hin. apply in_firstn in Hin. auto.
  - inversion H; subst. auto.
Qed.

Lemma firstn_app_full : forall (A : Type) (l l' : list A), firstn (length l) (l ++ l') = l.
Proof. intros A l l'. rewrite firstn_app, firstn_all, Nat.sub_diag. apply app_nil_r. Qed.

Lemma Permutation_filter_len : forall (A : Type) (p : A -> bool) (l l' : list A),
  Permutation l l' -> length (filter p l) = length (filter p l').
Proof.
  intros A p l l' HP. induction HP; cbn [filter]; auto.
  - destruct (p x); cbn [length]; auto.
  - destruct (p x); destruct (p y); cbn [length]; auto.
  - congruence.
Qed.

Lemma filter_rev_perm : forall (A : Type) (p : A -> bool) (l : list A), Permutation (filter p (rev l)) (filter p l).
Proof.
  intros A p l. induction l as [|a l IH]; [reflexivity|].
  cbn [rev]. rewrite filter_app. cbn [filter]. destruct (p a).
  - eapply perm_trans; [apply Permutation_app_comm|]. cbn [app]. apply perm_skip. exact IH.
  - rewrite app_nil_r. exact IH.
Qed.

Lemma filter_same_length : forall (A : Type) (p : A -> bool) (l : list A),
  length (filter p l) = length l -> filter p l = l /\ forall x, In x l -> p x = true.
Proof.
  intros A p l. induction l as [|a l IH]; intro H; [split; [reflexivity | intros x []]|].
  cbn [filter] in *. destruct (p a) eqn:E.
  - cbn [length] in H. destruct (IH ltac:(lia)) as [I1 I2]. split; [rewrite I1; reflexivity|].
    intros x [->|Hx]; auto.
  - pose proof (filter_length_le p l). cbn [length] in H. lia.
Qed.

Lemma in_or_all : forall (A : Type) (P Q : A -> Prop) (l : list A),
  (forall a, In a l -> P a \/ Q a) -> (forall a, In a l -> P a) \/ (exists a, In a l /\ Q a).
Proof.
  intros A P Q l. induction l as [|a l IH]; intro H; [left; intros a []|].
  destruct (H a (or_introl eq_refl)) as [Ha|Ha]; [|right; exists a; split; [left; reflexivity | exact Ha]].
  destruct IH as [I|[b [Hb Qb]]]; [intros; apply H; right; auto| |].
  - left. intros b [->|Hb]; auto.
  - right. exists b. split; [right; exact Hb | exact Qb].
Qed.

Section SortFacts.
  Variable A : Type.
  Variable le : A -> A -> bool.
  Hypothesis le_total : forall a b, le a b = true \/ le b a = true.
  Hypothesis le_trans : forall a b c, le a b = true -> le b c = true -> le a c = true.
  Definition R (a b : A) : Prop := le a b = true.

  Lemma le_refl : forall a, le a a = true.
  Proof. intro a. destruct (le_total a a); auto. Qed.

  Lemma ins_perm : forall x l, Permutation (ins le x l) (x :: l).
  Proof.
    intros x l. induction l as [|a l IH]; cbn [ins]; [reflexivity|].
    destruct (le x a); [reflexivity|].
    apply perm_trans with (a :: x :: l); [apply perm_skip, IH | apply perm_swap].
  Qed.

  Lemma ins_In : forall x y l, In y (ins le x l) <-> y = x \/ In y l.
  Proof.
    intros x y l. split; intro H.
    - apply (Permutation_in _ (ins_perm x l)) in H. destruct H; auto.
    - apply (Permutation_in _ (Permutation_sym (ins_perm x l))). destruct H; [left; auto | right; auto].
  Qed.

  Lemma ins_length : forall x l, length (ins le x l) = S (length l).
  Proof. intros. apply (Permutation_length (ins_perm x l)). Qed.

  Lemma sort_perm : forall l, Permutation (stable_sort le l) l.
  Proof.
    induction l as [|a l IH]; cbn [stable_sort fold_right]; [reflexivity|].
    eapply perm_trans; [apply ins_perm|]. apply perm_skip. exact IH.
  Qed.

  Lemma sort_length : forall l, length (stable_sort le l) = length l.
  Proof. intro l. apply (Permutation_length (sort_perm l)). Qed.

  Lemma sort_In : forall y l, In y (stable_sort le l) <-> In y l.
  Proof.
    intros y l; split; intro H.
    - exact (Permutation_in _ (sort_perm l) H).
    - exact (Permutation_in _ (Permutation_sym (sort_perm l)) H).
  Qed.

  Lemma ins_sorted : forall x l, StronglySorted R l -> StronglySorted R (ins le x l).
  Proof.
    intros x l H. induction H as [|a l Hs IH Hf]; cbn [ins].
    - constructor; constructor.
    - destruct (le x a) eqn:E.
      + constructor; [constructor; assumption|].
        constructor; [exact E|].
        rewrite Forall_forall in *. intros y Hy. apply (le_trans _ _ _ E). apply Hf, Hy.
      + constructor; [exact IH|].
        rewrite Forall_forall in *. intros y Hy. apply ins_In in Hy. destruct Hy as [->|Hy].
        * destruct (le_total a x) as [T|T]; [exact T | congruence].
        * apply Hf, Hy.
  Qed.

  Lemma sort_sorted : forall l, StronglySorted R (stable_sort le l).
  Proof.
    induction l as [|a l IH]; cbn [stable_sort fold_right]; [constructor|].
    apply ins_sorted. exact IH.
  Qed.

  Lemma firstn_ins : forall x l k, firstn k (ins le x l) = firstn k (ins le x (firstn k l)).
  Proof.
    intros x l. induction l as [|a l IH]; intro k.
    - destruct k; reflexivity.
    - destruct k as [|k]; [reflexivity|].
      cbn [ins firstn]. destruct (le x a) eqn:E.
      + cbn [firstn]. f_equal.
        change (a :: firstn k l) with (firstn (S k) (a :: l)).
        rewrite firstn_firstn. rewrite Nat.min_l by lia. reflexivity.
      + cbn [firstn]. f_equal. apply IH.
  Qed.

  Lemma ins_snoc : forall x l w, le w x = false -> ins le x (l ++ [w]) = ins le x l ++ [w].
  Proof.
    intros x l w H. induction l as [|a l IH]; cbn [app ins].
    - destruct (le_total x w) as [T|T]; [rewrite T; reflexivity | congruence].
    - destruct (le x a); [reflexivity|]. rewrite IH. reflexivity.
  Qed.

  Lemma ins_app_end : forall x l, (forall a, In a l -> le x a = false) -> ins le x l = l ++ [x].
  Proof.
    intros x l. induction l as [|a l IH]; intro H; [reflexivity|].
    cbn [ins app]. rewrite (H a (or_introl eq_refl)). f_equal. apply IH. intros; apply H; right; auto.
  Qed.

  Lemma sort_of_sorted : forall l, StronglySorted R l -> stable_sort le l = l.
  Proof.
    intros l H. induction H as [|a l Hs IH Hf]; [reflexivity|].
    cbn [stable_sort fold_right]. fold (stable_sort le l). rewrite IH.
    destruct l as [|b l]; [reflexivity|]. cbn [ins].
    rewrite Forall_forall in Hf. rewrite (Hf b (or_introl eq_refl)). reflexivity.
  Qed.

  Lemma topk_In : forall k l x, In x (firstn k (stable_sort le l)) -> In x l.
  Proof. intros k l x H. apply sort_In. exact (in_firstn _ _ _ H). Qed.

  Lemma topk_sorted : forall k l, StronglySorted R (firstn k (stable_sort le l)).
  Proof. intros k l. apply StronglySorted_firstn, sort_sorted. Qed.

  Lemma topk_NoDup : forall (B : Type) (f : A -> B) k l,
    NoDup (map f l) -> NoDup (map f (firstn k (stable_sort le l))).
  Proof.
    intros B f k l H. rewrite <- firstn_map. apply NoDup_firstn.
    exact (Permutation_NoDup (Permutation_map f (Permutation_sym (sort_perm l))) H).
  Qed.

  Lemma topk_complete : forall k l x, In x l ->
    In x (firstn k (stable_sort le l)) \/
    (length (firstn k (stable_sort le l)) = k /\ forall o, In o (firstn k (stable_sort le l)) -> le o x = true).
  Proof. intros k l x Hx. apply (sorted_firstn_split R); [apply sort_sorted | apply sort_In, Hx]. Qed.

  Lemma topk_of_sorted : forall k l, StronglySorted R l -> (length l <= k)%nat -> firstn k (stable_sort le l) = l.
  Proof. intros k l H L. rewrite (sort_of_sorted l H). apply firstn_all2, L. Qed.
End SortFacts.

Arguments R {A} le a b.

Lemma sorted_perm_unique : forall (A : Type) (le : A -> A -> bool),
  (forall a, le a a = true) ->
  forall l1 l2, StronglySorted (R le) l1 -> StronglySorted (R le) l2 -> Permutation l1 l2 ->
  (forall a b, In a l1 -> In b l1 -> le a b = true -> le b a = true -> a = b) -> l1 = l2.
Proof.
  intros A le Hrefl l1. induction l1 as [|a t1 IH]; intros l2 H1 H2 HP Hanti.
  - apply Permutation_nil in HP. subst; reflexivity.
  - destruct l2 as [|b t2]; [apply Permutation_sym, Permutation_nil in HP; discriminate|].
    inversion H1 as [|? ? Hs1 Hf1]; subst. inversion H2 as [|? ? Hs2 Hf2]; subst.
    rewrite Forall_forall in Hf1, Hf2.
    assert (Hab : a = b).
    { assert (Hb : In b (a :: t1)) by (apply (Permutation_in _ (Permutation_sym HP)); left; reflexivity).
      assert (Ha : In a (b :: t2)) by (apply (Permutation_in _ HP); left; reflexivity).
      destruct Hb as [->|Hb]; [reflexivity|]. destruct Ha as [<-|Ha]; [reflexivity|].
      apply Hanti; [left; reflexivity | right; exact Hb | apply Hf1, Hb | apply Hf2, Ha]. }
    subst b. f_equal. apply IH; auto.
    + eapply Permutation_cons_inv; eauto.
    + intros x y Hx Hy. apply Hanti; right; assumption.
Qed.

(* request validation as cold_search and tiered_search do it: only a well-formed query with 1 <= k <= 10000
   reaches the body *)
Lemma validated : forall (A : Type) (qc : qcheck) (k : N) (e1 e2 e3 e4 e5 body x : A),
  match qc with
  | QEmpty => e1
  | _ => if (k =? 0)%N then e2 else if (10000 <? k)%N then e3
         else match qc with QDim => e4 | QNorm => e5 | _ => body end
  end = x ->
  x <> e1 -> x <> e2 -> x <> e3 -> x <> e4 -> x <> e5 ->
  (1 <= k <= 10000)%N /\ body = x.
Proof.
  intros A qc k e1 e2 e3 e4 e5 body x H N1 N2 N3 N4 N5.
  destruct qc; try (symmetry in H; contradiction);
    (destruct (N.eqb_spec k 0); [symmetry in H; contradiction|]);
    (destruct (N.ltb_spec 10000 k); [symmetry in H; contradiction|]); try (symmetry in H; contradiction).
  split; [lia | exact H].
Qed.

(* the same in timed_search, where the query permit is taken between the dimension check and normalisation *)
Lemma validated_timed : forall (A : Type) (qc : qcheck) (k : N) (permit : bool) (e1 e2 e3 e4 e5 e6 body x : A),
  match qc with
  | QEmpty => e1
  | _ => if (k =? 0)%N then e2 else if (10000 <? k)%N then e3
         else match qc with
              | QDim => e4
              | _ => if negb permit then e6 else match qc with QNorm => e5 | _ => body end
              end
  end = x ->
  x <> e1 -> x <> e2 -> x <> e3 -> x <> e4 -> x <> e5 -> x <> e6 ->
  (1 <= k <= 10000)%N /\ body = x.
Proof.
  intros A qc k permit e1 e2 e3 e4 e5 e6 body x H N1 N2 N3 N4 N5 N6.
  destruct qc; try (symmetry in H; contradiction);
    (destruct (N.eqb_spec k 0); [symmetry in H; contradiction|]);
    (destruct (N.ltb_spec 10000 k); [symmetry in H; contradiction|]); try (symmetry in H; contradiction);
    (destruct permit; [|symmetry in H; contradiction]); try (symmetry in H; contradiction).
  split; [lia | exact H].
Qed.

Section KnnFacts.
  Variables vec dist dg : Type.
  Variable dle : dist -> dist -> bool.
  Variable dfin : dist -> bool.
  Variable metric : vec -> vec -> dist.
  Variable digest : vec -> dg.
  Variable dg_eqb : dg -> dg -> bool.
  Hypothesis dle_total : forall a b, dle a b = true \/ dle b a = true.
  Hypothesis dle_trans : forall a b c, dle a b = true -> dle b c = true -> dle a c = true.

  Notation res := (res dist).
  Notation cle := (cand_le dle).
  Notation fin := (fun c : res => dfin (snd c)).

  Lemma dle_refl : forall a, dle a a = true.
  Proof. intro a. destruct (dle_total a a); auto. Qed.

  Lemma rle_total : forall a b : res, rle dle a b = true \/ rle dle b a = true.
  Proof. intros a b. apply dle_total. Qed.
  Lemma rle_trans : forall a b c : res, rle dle a b = true -> rle dle b c = true -> rle dle a c = true.
  Proof. intros a b c. apply dle_trans. Qed.

  Lemma cle_spec : forall a b : res, cle a b = true <->
    (dle (snd b) (snd a) = false \/
     (dle (snd b) (snd a) = true /\ dle (snd a) (snd b) = true /\ (fst a <= fst b)%N)).
  Proof.
    intros a b. unfold cand_le, dlt.
    destruct (dle (snd b) (snd a)) eqn:E1; cbn [negb].
    - destruct (dle (snd a) (snd b)) eqn:E2; cbn [negb].
      + rewrite N.leb_le. split; [intro H; right; auto | intros [H|[_ [_ H]]]; [discriminate | exact H]].
      + split; [discriminate | intros [H|[_ [H _]]]; discriminate].
    - split; [intro; left; reflexivity | reflexivity].
  Qed.

  Lemma cle_total : forall a b : res, cle a b = true \/ cle b a = true.
  Proof.
    intros a b. rewrite !cle_spec.
    destruct (dle (snd b) (snd a)) eqn:E1; [|left; left; reflexivity].
    destruct (dle (snd a) (snd b)) eqn:E2; [|right; left; reflexivity].
    destruct (N.le_ge_cases (fst a) (fst b)); [left | right]; right; auto.
  Qed.

  Lemma cle_trans : forall a b c : res, cle a b = true -> cle b c = true -> cle a c = true.
  Proof.
    intros a b c. rewrite !cle_spec. intros [H1|[H1 [H1' L1]]] [H2|[H2 [H2' L2]]].
    - left. destruct (dle (snd c) (snd a)) eqn:E; [|reflexivity].
      destruct (dle_total (snd a) (snd b)) as [T|T]; [|congruence].
      rewrite (dle_trans _ _ _ E T) in H2. discriminate.
    - left. destruct (dle (snd c) (snd a)) eqn:E; [|reflexivity].
      rewrite (dle_trans _ _ _ H2' E) in H1. discriminate.
    - left. destruct (dle (snd c) (snd a)) eqn:E; [|reflexivity].
      rewrite (dle_trans _ _ _ E H1') in H2. discriminate.
    - right. repeat split; [eapply dle_trans; eauto | eapply dle_trans; eauto | lia].
  Qed.

  Lemma cle_antisym_id : forall a b : res, cle a b = true -> cle b a = true -> fst a = fst b.
  Proof.
    intros a b. rewrite !cle_spec. intros [H1|[H1 [H1' L1]]] [H2|[H2 [H2' L2]]]; try congruence.
    - destruct (dle_total (snd a) (snd b)); congruence.
    - lia.
  Qed.

  Lemma cle_dle : forall a b : res, cle a b = true -> dle (snd a) (snd b) = true.
  Proof.
    intros a b. rewrite cle_spec. intros [H|[_ [H _]]]; [|exact H].
    destruct (dle_total (snd a) (snd b)); congruence.
  Qed.

  Lemma cle_sorted : forall l : list res, StronglySorted (R cle) (stable_sort cle l).
  Proof. intro l. apply sort_sorted; [apply cle_total | apply cle_trans]. Qed.

  Lemma cand_anti_on : forall (l : list res), NoDup (map fst l) ->
    forall a b, In a l -> In b l -> cle a b = true -> cle b a = true -> a = b.
  Proof. intros l HN a b Ha Hb H1 H2. apply (NoDup_map_inj fst l); auto. apply cle_antisym_id; auto. Qed.

  Lemma sort_perm_invariant : forall (l1 l2 : list res), Permutation l1 l2 -> NoDup (map fst l1) ->
    stable_sort cle l1 = stable_sort cle l2.
  Proof.
    intros l1 l2 HP HN. apply sorted_perm_unique with (le := cle); try apply cle_sorted.
    - apply le_refl, cle_total.
    - eapply perm_trans; [apply sort_perm|]. eapply perm_trans; [exact HP|]. apply Permutation_sym, sort_perm.
    - intros a b Ha Hb. rewrite sort_In in Ha, Hb. eapply cand_anti_on; eauto.
  Qed.

  (* one step of the scan, on a heap that is sorted, at most k long and holds no entry with c's id (so none
     ties with c): insert c and keep the first k *)
  Lemma hot_step_ins : forall k (c : res) (T : list res), (0 < k)%nat ->
    StronglySorted (R cle) T -> (length T <= k)%nat -> (forall x, In x T -> fst x <> fst c) ->
    hot_step dle dfin k T c = if dfin (snd c) then firstn k (ins cle c T) else T.
  Proof.
    intros k c T Hk HT HL Hid. unfold hot_step. destruct (dfin (snd c)); cbn [negb]; [|reflexivity].
    destruct (length T <? k)%nat eqn:El.
    { apply Nat.ltb_lt in El. unfold heap_push. symmetry. apply firstn_all2. rewrite ins_length. lia. }
    apply Nat.ltb_ge in El. destruct (exists_last (l := T)) as [t [w ->]]; [intros ->; cbn in El; lia|].
    assert (Hlen : length (t ++ [w]) = k) by lia. clear HL El.
    apply StronglySorted_app_iff in HT. destruct HT as (_ & _ & Hmax).
    replace (heap_peek (t ++ [w])) with (Some w) by (destruct t; cbn [app heap_peek]; rewrite ?last_last; reflexivity).
    unfold cand_lt, heap_push, heap_pop. destruct (cle w c) eqn:Ew; cbn [negb].
    - (* c comes after the maximum w, hence after every entry, and is cut off *)
      rewrite ins_app_end, <- Hlen; [symmetry; apply firstn_app_full|].
      intros x Hx. destruct (cle c x) eqn:Ecx; [|reflexivity]. exfalso.
      apply (Hid x Hx), cle_antisym_id; [|exact Ecx]. apply in_app_or in Hx.
      destruct Hx as [Hx|[<-|[]]]; [|exact Ew]. exact (cle_trans _ _ _ (Hmax x w Hx (or_introl eq_refl)) Ew).
    - (* c comes before w, which is cut off *)
      rewrite removelast_last, (ins_snoc _ cle cle_total c t w Ew).
      replace k with (length (ins cle c t)); [symmetry; apply firstn_app_full|].
      rewrite ins_length, <- Hlen, app_length. cbn [length]. lia.
  Qed.

  Lemma heap_inv : forall k (m : list res), (0 < k)%nat -> NoDup (map fst m) ->
    fold_right (fun c h => hot_step dle dfin k h c) [] m = firstn k (stable_sort cle (filter fin m)).
  Proof.
    intros k m Hk. induction m as [|c m IH]; intro HN; [destruct k; reflexivity|].
    cbn [map] in HN. apply NoDup_cons_iff in HN. destruct HN as [Hc HN].
    cbn [fold_right filter]. rewrite (IH HN), hot_step_ins.
    - destruct (dfin (snd c)); [|reflexivity]. symmetry. exact (firstn_ins _ cle c (stable_sort cle (filter fin m)) k).
    - exact Hk.
    - apply topk_sorted; [apply cle_total | apply cle_trans].
    - apply firstn_le_length.
    - intros x Hx E. apply Hc. rewrite <- E. apply in_map. apply topk_In, filter_In in Hx. tauto.
  Qed.

  Theorem hot_heap_is_topk : forall (k : nat) (q : vec) (hs : hot vec dg),
    NoDup (map (@h_id vec dg) hs) ->
    hot_knn dle dfin metric k q hs = topk_spec dle dfin k (hot_cands metric q hs).
  Proof using dle_total dle_trans.
    intros k q hs HN. unfold hot_knn, topk_spec.
    destruct (k =? 0)%nat eqn:Ek; [apply Nat.eqb_eq in Ek; subst; reflexivity|].
    apply Nat.eqb_neq in Ek.
    set (l := hot_cands metric q hs).
    assert (HNl : NoDup (map fst l)).
    { unfold l, hot_cands. rewrite map_map. cbn [fst]. exact HN. }
    assert (HNr : NoDup (map fst (filter fin (rev l)))).
    { apply NoDup_map_filter. rewrite map_rev. apply NoDup_rev, HNl. }
    rewrite <- (rev_involutive l) at 1. rewrite <- fold_left_rev_right, rev_involutive.
    rewrite heap_inv; [|lia|rewrite map_rev; apply NoDup_rev, HNl].
    (* the heap holds the top k of the reversed list; both the list order and the final re-sort are immaterial *)
    rewrite (sort_perm_invariant _ _ (filter_rev_perm _ _ l) HNr).
    set (T := firstn k (stable_sort cle (filter fin l))).
    rewrite (sort_perm_invariant (rev T) T (Permutation_sym (Permutation_rev T))).
    - apply sort_of_sorted, topk_sorted; [apply cle_total | apply cle_trans].
    - rewrite map_rev. apply NoDup_rev, topk_NoDup, NoDup_map_filter, HNl.
  Qed.

  Notation keys := (map (@fst N dist)).

  Lemma map_insert_keys : forall i j d (m : list res),
    In i (keys (map_insert j d m)) <-> i = j \/ In i (keys m).
  Proof.
    intros i j d m. induction m as [|[a e] m IH]; cbn [map_insert map fst In].
    - split; intros [H|[]]; left; auto.
    - destruct (N.eqb_spec j a) as [<-|_]; cbn [map fst In]; [|rewrite IH]; split.
      + intros [H|H]; auto.
      + intros [H|[H|H]]; auto.
      + intros [H|[H|H]]; auto.
      + intros [H|[H|H]]; auto.
  Qed.

  Lemma map_insert_nodup : forall j d (m : list res), NoDup (keys m) -> NoDup (keys (map_insert j d m)).
  Proof.
    intros j d m. induction m as [|[a e] m IH]; intro H; cbn [map_insert map fst].
    - constructor; [intros []|constructor].
    - cbn [map fst] in H. inversion H as [|? ? Hnin HN]; subst.
      destruct (j =? a)%N eqn:E; cbn [map fst].
      + apply N.eqb_eq in E. subst a. constructor; assumption.
      + constructor; [|auto]. rewrite map_insert_keys. intros [->|Hin]; [rewrite N.eqb_refl in E; discriminate|auto].
  Qed.

  Lemma map_or_insert_keys_eq : forall j d (m : list res), keys (map_or_insert j d m) = keys (map_insert j d m).
  Proof.
    intros j d m. induction m as [|[a e] m IH]; cbn [map_insert map_or_insert map fst]; [reflexivity|].
    destruct (N.eqb_spec j a); cbn [map fst]; congruence.
  Qed.

  Lemma map_insert_in : forall i d j e (m : list res),
    In (i, d) (map_insert j e m) -> (j, e) = (i, d) \/ In (i, d) m.
  Proof.
    intros i d j e m. induction m as [|[a x] m IH]; cbn [map_insert]; [intros [H|[]]; auto|].
    destruct (j =? a)%N; intros [H|H]; cbn [In]; auto. destruct (IH H); auto.
  Qed.

  Lemma map_or_insert_in : forall i d j e (m : list res),
    In (i, d) (map_or_insert j e m) -> In (i, d) m \/ (i = j /\ d = e /\ ~ In j (keys m)).
  Proof.
    intros i d j e m. induction m as [|[a x] m IH]; intro H; cbn [map_or_insert] in H.
    - destruct H as [H|[]]. inversion H; subst. right. repeat split; auto.
    - destruct (j =? a)%N eqn:E.
      + left. exact H.
      + apply N.eqb_neq in E. destruct H as [H|H]; [left; left; exact H|].
        destruct (IH H) as [?|[? [? Hn]]]; [left; right; auto|].
        right. repeat split; auto. cbn [map fst In]. intros [?|?]; [congruence | auto].
  Qed.

  Lemma fold_keys : forall (f : N -> dist -> list res -> list res),
    (forall j d m, NoDup (keys m) -> NoDup (keys (f j d m))) ->
    (forall i j d m, i = j \/ In i (keys m) -> In i (keys (f j d m))) ->
    forall (l acc : list res), NoDup (keys acc) ->
      NoDup (keys (fold_left (fun m x => f (fst x) (snd x) m) l acc))
      /\ forall i, In i (keys l) \/ In i (keys acc) -> In i (keys (fold_left (fun m x => f (fst x) (snd x) m) l acc)).
  Proof.
    intros f Hnd Hin l. induction l as [|[j e] t IH]; intros acc HN; cbn [fold_left fst snd].
    - split; [exact HN | intros i [[]|H]; exact H].
    - destruct (IH _ (Hnd j e acc HN)) as [I1 I2]. split; [exact I1|].
      intros i H. apply I2. cbn [map fst In] in H. destruct H as [[H|H]|H]; auto.
  Qed.

  Lemma fold_insert_in : forall (h acc : list res) i d,
    In (i, d) (fold_left (fun m x => map_insert (fst x) (snd x) m) h acc) -> In (i, d) h \/ In (i, d) acc.
  Proof.
    intro h. induction h as [|[j e] t IH]; intros acc i d H; cbn [fold_left fst snd In] in *; [auto|].
    destruct (IH _ _ _ H) as [Ht|Hi]; [auto|]. destruct (map_insert_in _ _ _ _ _ Hi); auto.
  Qed.

  Lemma fold_or_insert_in : forall (c acc : list res) i d,
    In (i, d) (fold_left (fun m x => map_or_insert (fst x) (snd x) m) c acc) ->
    In (i, d) acc \/ (~ In i (keys acc) /\ In (i, d) c).
  Proof.
    intro c. induction c as [|[j e] t IH]; intros acc i d H; cbn [fold_left fst snd] in H; [auto|].
    destruct (IH _ _ _ H) as [Ha|[Hn Ht]].
    - destruct (map_or_insert_in _ _ _ _ _ Ha) as [?|[-> [-> Hnj]]]; [auto|]. right. split; [exact Hnj | left; reflexivity].
    - right. split; [|right; exact Ht]. intro Hin. apply Hn. rewrite map_or_insert_keys_eq. apply map_insert_keys. auto.
  Qed.

  Lemma merge_map_facts : forall (h c : list res),
    NoDup (keys (merge_map h c))
    /\ (forall i, In i (keys h) -> In i (keys (merge_map h c)))
    /\ (forall i d, In (i, d) (merge_map h c) -> In (i, d) h \/ (~ In i (keys h) /\ In (i, d) c)).
  Proof.
    intros h c. unfold merge_map.
    destruct (fold_keys map_insert map_insert_nodup (fun i j d m => proj2 (map_insert_keys i j d m)) h [] (NoDup_nil _))
      as [A1 A2].
    destruct (fold_keys map_or_insert) with (l := c) (acc := fold_left (fun m x => map_insert (fst x) (snd x) m) h [])
      as [B1 B2]; try exact A1.
    { intros j d m. rewrite map_or_insert_keys_eq. apply map_insert_nodup. }
    { intros i j d m. rewrite map_or_insert_keys_eq. apply map_insert_keys. }
    split; [exact B1|]. split; [auto|].
    intros i d H. destruct (fold_or_insert_in _ _ _ _ H) as [Hr|[Hn Hc]].
    - destruct (fold_insert_in _ _ _ _ Hr) as [?|[]]. auto.
    - right. split; [auto | exact Hc].
  Qed.

  Section Merge.
    Variable order : list res -> list res.
    Hypothesis order_perm : forall l, Permutation (order l) l.

    Definition sorted_by_distance (l : list res) : Prop := StronglySorted (R (rle dle)) l.

    Theorem merge_sound : forall (h c : list res) (k : nat),
      let out := merge_knn dle order h c k in
      (length out <= k)%nat
      /\ NoDup (keys out)
      /\ sorted_by_distance out
      /\ (forall i d, In (i, d) out -> In (i, d) h \/ (~ In i (keys h) /\ In (i, d) c)).
    Proof.
      intros h c k. cbn zeta. unfold merge_knn.
      destruct (merge_map_facts h c) as [M1 [M2 M3]].
      repeat split.
      - apply firstn_le_length.
      - apply topk_NoDup. exact (Permutation_NoDup (Permutation_map fst (Permutation_sym (order_perm _))) M1).
      - apply topk_sorted; [apply rle_total | apply rle_trans].
      - intros i d H. apply M3. apply (Permutation_in _ (order_perm _)). exact (topk_In _ _ _ _ _ H).
    Qed.

    Lemma merge_complete : forall (h c : list res) (k : nat) (r : res),
      In r (merge_map h c) ->
      let out := merge_knn dle order h c k in
      In r out \/ (length out = k /\ forall o, In o out -> rle dle o r = true).
    Proof.
      intros h c k r Hr. apply topk_complete; [apply rle_total | apply rle_trans|].
      exact (Permutation_in _ (Permutation_sym (order_perm _)) Hr).
    Qed.

    Lemma merge_hot_member : forall (h c : list res) i d,
      NoDup (keys h) -> In (i, d) h -> In (i, d) (merge_map h c).
    Proof.
      intros h c i d HN Hin. destruct (merge_map_facts h c) as [M1 [M2 M3]].
      assert (Hk : In i (keys (merge_map h c))) by exact (M2 i (in_map fst _ _ Hin)).
      apply in_map_iff in Hk. destruct Hk as [[i' d'] [E Hm]]. cbn [fst] in E. subst i'.
      destruct (M3 i d' Hm) as [Hh|[Hn _]].
      - pose proof (NoDup_map_inj fst h (i, d') (i, d) HN Hh Hin eq_refl) as E. inversion E; subst. exact Hm.
      - exfalso. apply Hn. change i with (fst (i, d)). apply in_map, Hin.
    Qed.
  End Merge.

  Definition live_exts (s : cstore vec dg) : list N :=
    flat_map (fun sl => match cs_ext sl with Some e => [e] | None => [] end) s.

  (* DocStore invariant: an external id labels at most one slot (external_to_internal is a map onto the
     Some-entries of internal_to_external), and the stored digest is the digest of the stored vector *)
  Definition store_wf (s : cstore vec dg) : Prop :=
    NoDup (live_exts s) /\ forall sl, In sl s -> is_live sl = true -> cs_dg sl = digest (cs_vec sl).

  (* the AnnBackend contract (ann_backend.rs, trait doc comment) for store s and query q *)
  Definition ann_contract (ann : ann_t vec dist) (s : cstore vec dg) (q : vec) : Prop :=
    forall sk raw, ann q sk = Some raw ->
      (length raw <= N.to_nat sk)%nat
      /\ NoDup (map fst raw)
      /\ StronglySorted (R (rle dle)) raw
      /\ forall i d sl, In (i, d) raw -> nth_error s (N.to_nat i) = Some sl -> d = metric q (cs_vec sl).

  Definition live_true (s : cstore vec dg) (q : vec) (r : res) : Prop :=
    exists sl, cold_slot s (fst r) = Some sl /\ snd r = metric q (cs_vec sl).

  Definition sound_results (s : cstore vec dg) (q : vec) (k : nat) (out : list res) : Prop :=
    (length out <= k)%nat /\ NoDup (keys out) /\ sorted_by_distance out /\ Forall (live_true s q) out.

  Lemma cold_slot_ext : forall (s : cstore vec dg) id sl, cold_slot s id = Some sl -> cs_ext sl = Some id /\ In sl s.
  Proof.
    intros s id sl H. unfold cold_slot in H. apply find_some in H. destruct H as [Hin H].
    unfold ext_is in H. destruct (cs_ext sl) as [e|]; [|discriminate]. apply N.eqb_eq in H. subst. auto.
  Qed.

  Lemma live_exts_in : forall (s : cstore vec dg) sl e, In sl s -> cs_ext sl = Some e -> In e (live_exts s).
  Proof.
    intros s sl e Hin He. unfold live_exts. apply in_flat_map. exists sl. split; [exact Hin|]. rewrite He. left; reflexivity.
  Qed.

  Lemma wf_index_unique : forall (s : cstore vec dg) i j sl sl' e, NoDup (live_exts s) ->
    nth_error s i = Some sl -> nth_error s j = Some sl' -> cs_ext sl = Some e -> cs_ext sl' = Some e -> i = j.
  Proof.
    intro s. induction s as [|a s IH]; intros i j sl sl' e HN Hi Hj He He'; [destruct i; discriminate|].
    unfold live_exts in HN. cbn [flat_map] in HN. fold (live_exts s) in HN.
    (* the head slot's id does not label a slot of the tail *)
    assert (Hhd : forall n x, cs_ext a = Some e -> nth_error s n = Some x -> cs_ext x = Some e -> False).
    { intros n x Ha Hn Hx. rewrite Ha in HN. apply NoDup_cons_iff in HN. apply (proj1 HN).
      exact (live_exts_in s x e (nth_error_In _ _ Hn) Hx). }
    destruct i as [|i], j as [|j]; cbn [nth_error] in Hi, Hj.
    - reflexivity.
    - inversion Hi; subst. destruct (Hhd _ _ He Hj He').
    - inversion Hj; subst. destruct (Hhd _ _ He' Hi He).
    - f_equal. apply (IH i j sl sl' e); auto. destruct (cs_ext a); [apply NoDup_cons_iff in HN; apply HN | exact HN].
  Qed.

  Lemma wf_slot_unique : forall (s : cstore vec dg) i sl e, NoDup (live_exts s) ->
    nth_error s i = Some sl -> cs_ext sl = Some e -> cold_slot s e = Some sl.
  Proof.
    intros s i sl e HN Hn He. destruct (cold_slot s e) as [sl'|] eqn:Ef.
    - destruct (cold_slot_ext _ _ _ Ef) as [E' Hin]. destruct (In_nth_error _ _ Hin) as [j Hj].
      rewrite (wf_index_unique s i j sl sl' e HN Hn Hj He E') in Hn. congruence.
    - pose proof (find_none _ _ Ef sl (nth_error_In _ _ Hn)) as H. unfold ext_is in H.
      rewrite He, N.eqb_refl in H. discriminate.
  Qed.

  Lemma remap_in : forall (s : cstore vec dg) k (raw : list (N * dist)) len e d, In (e, d) (remap s k len raw) ->
    exists i sl, In (i, d) raw /\ nth_error s (N.to_nat i) = Some sl /\ cs_ext sl = Some e.
  Proof.
    intros s k raw. induction raw as [|[i x] t IH]; intros len e d H; cbn [remap] in H; [destruct H|].
    assert (Ht : forall len', In (e, d) (remap s k len' t) ->
              exists i' sl, In (i', d) ((i, x) :: t) /\ nth_error s (N.to_nat i') = Some sl /\ cs_ext sl = Some e).
    { intros len' H'. destruct (IH _ _ _ H') as [i' [sl' [? [? ?]]]]. exists i', sl'. repeat split; auto. right; auto. }
    destruct (nth_error s (N.to_nat i)) as [sl|] eqn:En; [|eauto].
    destruct (cs_ext sl) as [ext|] eqn:Ee; [|eauto].
    destruct H as [H|H].
    - inversion H; subst. exists i, sl. repeat split; auto. left; reflexivity.
    - destruct (k <=? S len)%nat; [destruct H | eauto].
  Qed.

  Lemma remap_length : forall (s : cstore vec dg) k (raw : list (N * dist)) len, (len < k)%nat ->
    (length (remap s k len raw) <= k - len)%nat.
  Proof.
    intros s k raw. induction raw as [|[i x] t IH]; intros len Hl; cbn [remap]; [cbn; lia|].
    destruct (nth_error s (N.to_nat i)) as [sl|]; [|auto].
    destruct (cs_ext sl); [|auto]. cbn [length].
    destruct (k <=? S len)%nat eqn:E.
    - cbn [length]. lia.
    - apply Nat.leb_gt in E. specialize (IH (S len) E). lia.
  Qed.

  Lemma remap_sound : forall (s : cstore vec dg) (q : vec) k (raw : list (N * dist)) len,
    NoDup (live_exts s) ->
    NoDup (map fst raw) -> StronglySorted (R (rle dle)) raw ->
    (forall i d sl, In (i, d) raw -> nth_error s (N.to_nat i) = Some sl -> d = metric q (cs_vec sl)) ->
    NoDup (keys (remap s k len raw)) /\ sorted_by_distance (remap s k len raw)
    /\ Forall (live_true s q) (remap s k len raw).
  Proof.
    intros s q k raw. induction raw as [|[i x] t IH]; intros len Hwf HN HS Htrue; cbn [remap].
    { repeat split; constructor. }
    cbn [map fst] in HN. apply NoDup_cons_iff in HN. destruct HN as [Hnin HN'].
    apply StronglySorted_inv in HS. destruct HS as [HS' HF].
    assert (IH' := fun len => IH len Hwf HN' HS' (fun i d sl H => Htrue i d sl (or_intror H))). clear IH.
    destruct (nth_error s (N.to_nat i)) as [sl|] eqn:En; [|apply IH'].
    destruct (cs_ext sl) as [ext|] eqn:Ee; [|apply IH'].
    assert (Hlive : live_true s q (ext, x)).
    { exists sl. split; [exact (wf_slot_unique s _ sl ext Hwf En Ee) | exact (Htrue i x sl (or_introl eq_refl) En)]. }
    destruct (k <=? S len)%nat.
    { split; [|split]; repeat constructor; [intros [] | exact Hlive]. }
    destruct (IH' (S len)) as [I1 [I2 I3]]. split; [|split]; constructor; try assumption.
    - (* a second slot with the same external id would be the same slot, hence the same raw entry *)
      intro Hin. apply in_map_iff in Hin. destruct Hin as [[e' d'] [E Hin]]. cbn [fst] in E. subst e'.
      destruct (remap_in _ _ _ _ _ _ Hin) as [i' [sl' [Hraw [Hn' He']]]].
      apply Hnin. rewrite (N2Nat.inj _ _ (wf_index_unique s _ _ sl sl' ext Hwf En Hn' Ee He')).
      exact (in_map fst _ _ Hraw).
    - apply Forall_forall. intros [e' d'] Hin.
      destruct (remap_in _ _ _ _ _ _ Hin) as [i' [sl' [Hraw _]]]. exact (proj1 (Forall_forall _ _) HF _ Hraw).
  Qed.

  Lemma cold_search_ok : forall (ann : ann_t vec dist) (s : cstore vec dg) qc q k out,
    cold_search ann s qc q k = Ok out ->
    (1 <= k <= 10000)%N /\
    exists raw, ann q (compute_search_k k (live_docs s) (total_slots s)) = Some raw /\ out = remap s (N.to_nat k) 0 raw.
  Proof.
    intros ann s qc q k out H. unfold cold_search in H.
    apply validated in H; try discriminate. destruct H as [Hk H]. split; [exact Hk|].
    destruct (ann q _) as [raw|]; [|discriminate]. inversion H. eauto.
  Qed.

  Theorem cold_sound : forall (ann : ann_t vec dist) (s : cstore vec dg) (qc : qcheck) (q : vec) (k : N) out,
    store_wf s -> ann_contract ann s q ->
    cold_search ann s qc q k = Ok out ->
    sound_results s q (N.to_nat k) out /\ (1 <= k <= 10000)%N.
  Proof.
    intros ann s qc q k out [Hwf _] Hc H. apply cold_search_ok in H. destruct H as (Hk & raw & Ea & ->).
    destruct (Hc _ _ Ea) as [_ [C2 [C3 C4]]].
    destruct (remap_sound s q (N.to_nat k) raw 0 Hwf C2 C3 C4) as [S1 [S2 S3]].
    pose proof (remap_length s (N.to_nat k) raw 0 ltac:(lia)). repeat split; auto; lia.
  Qed.

  Hypothesis digest_inj : forall a b : vec, digest a = digest b -> a = b.
  Hypothesis dg_eqb_eq : forall a b : dg, dg_eqb a b = true -> a = b.

  Definition hot_wf (hs : hot vec dg) : Prop := NoDup (map (@h_id vec dg) hs).

  (* what filter_hot_knn_results_to_canonical keeps, as a predicate on the ORIGINAL hot tier *)
  Definition keep (s : cstore vec dg) (hs : hot vec dg) (r : res) : bool :=
    match hot_find hs (fst r) with
    | Some e => match canonical_vector_state digest dg_eqb s e with Match => true | _ => false end
    | None => false
    end.

  Lemma hot_find_remove : forall (hs : hot vec dg) i j, i <> j -> hot_find (hot_remove hs j) i = hot_find hs i.
  Proof.
    intros hs i j Hne. unfold hot_find, hot_remove. induction hs as [|a hs IH]; [reflexivity|].
    cbn [filter find]. destruct (h_id a =? j)%N eqn:Ej; cbn [negb].
    - apply N.eqb_eq in Ej. destruct (h_id a =? i)%N eqn:Ei; [apply N.eqb_eq in Ei; congruence | exact IH].
    - cbn [find]. destruct (h_id a =? i)%N; [reflexivity | exact IH].
  Qed.

  (* the discards only concern ids already dealt with, so the fold is a filter on the original hot tier *)
  Lemma filter_hot_fold : forall (s : cstore vec dg) (hs : hot vec dg) (rs acc : list res) (hs' : hot vec dg),
    NoDup (keys rs) ->
    (forall r, In r rs -> hot_find hs' (fst r) = hot_find hs (fst r)) ->
    fst (fold_left (filter_hot_step digest dg_eqb s) rs (acc, hs')) = acc ++ filter (keep s hs) rs.
  Proof.
    intros s hs rs. induction rs as [|r t IH]; intros acc hs' HN Hf; cbn [fold_left filter].
    - cbn [fst]. rewrite app_nil_r. reflexivity.
    - cbn [map] in HN. inversion HN as [|? ? Hnin HN']; subst.
      assert (Hf' : forall r', In r' t -> hot_find hs' (fst r') = hot_find hs (fst r')) by (intros; apply Hf; right; auto).
      assert (Hrm : forall r', In r' t -> hot_find (hot_remove hs' (fst r)) (fst r') = hot_find hs (fst r')).
      { intros r' Hr'. rewrite hot_find_remove; [apply Hf', Hr'|]. intro E. apply Hnin. rewrite <- E. apply in_map, Hr'. }
      unfold filter_hot_step at 2. unfold keep at 1. rewrite (Hf r (or_introl eq_refl)).
      destruct (hot_find hs (fst r)) as [e|] eqn:Efind; [|apply IH; auto].
      destruct (canonical_vector_state digest dg_eqb s e); try (apply IH; auto).
      rewrite IH by auto. rewrite <- app_assoc. reflexivity.
  Qed.

  Lemma filter_hot_fst : forall (s : cstore vec dg) (hs : hot vec dg) (rs : list res),
    NoDup (keys rs) -> fst (filter_hot digest dg_eqb s hs rs) = filter (keep s hs) rs.
  Proof. intros s hs rs HN. unfold filter_hot. rewrite (filter_hot_fold s hs rs [] hs HN); auto. Qed.

  Lemma hot_knn_keys_nodup : forall k q (hs : hot vec dg), hot_wf hs -> NoDup (keys (hot_knn dle dfin metric k q hs)).
  Proof.
    intros k q hs HN. rewrite hot_heap_is_topk by exact HN. unfold topk_spec.
    apply topk_NoDup, NoDup_map_filter. unfold hot_cands. rewrite map_map. exact HN.
  Qed.

  Lemma hot_knn_in : forall k q (hs : hot vec dg) r, hot_wf hs -> In r (hot_knn dle dfin metric k q hs) ->
    exists e, In e hs /\ r = (h_id e, metric q (h_vec e)).
  Proof.
    intros k q hs r HN H. rewrite hot_heap_is_topk in H by exact HN.
    apply topk_In, filter_In in H. destruct H as [H _].
    unfold hot_cands in H. apply in_map_iff in H. destruct H as [e [E Hin]]. exists e. auto.
  Qed.

  Lemma hot_find_in : forall (hs : hot vec dg) x, hot_wf hs -> In x hs -> hot_find hs (h_id x) = Some x.
  Proof.
    intros hs x HN Hx. unfold hot_find. destruct (find (fun e => (h_id e =? h_id x)%N) hs) as [e|] eqn:E.
    - apply find_some in E. destruct E as [Hin Hid]. apply N.eqb_eq in Hid.
      f_equal. apply (NoDup_map_inj (@h_id vec dg) hs); auto.
    - exfalso. pose proof (find_none _ _ E x Hx) as Hn. cbn beta in Hn. rewrite N.eqb_refl in Hn. discriminate.
  Qed.

  Lemma kept_hot_live_true : forall (s : cstore vec dg) (hs : hot vec dg) k q r,
    store_wf s -> hot_wf hs ->
    In r (hot_knn dle dfin metric k q hs) -> keep s hs r = true -> live_true s q r.
  Proof.
    intros s hs k q r [_ Hdg] HN Hin Hk.
    destruct (hot_knn_in _ _ _ _ HN Hin) as [e [He ->]]. unfold keep in Hk. cbn [fst] in Hk.
    rewrite (hot_find_in hs e HN He) in Hk.
    unfold canonical_vector_state, cold_token in Hk.
    destruct (cold_slot s (h_id e)) as [sl|] eqn:Es; [|discriminate].
    destruct (tok_eqb dg_eqb (cs_ver sl, cs_dg sl) (h_ver e, h_dg e)) eqn:Et; cbn [negb] in Hk; [|discriminate].
    destruct (dg_eqb (digest (h_vec e)) (h_dg e)) eqn:Ed; cbn [negb] in Hk; [|discriminate].
    unfold tok_eqb in Et. cbn [fst snd] in Et. apply andb_prop in Et. destruct Et as [_ Et].
    apply dg_eqb_eq in Et. apply dg_eqb_eq in Ed.
    destruct (cold_slot_ext _ _ _ Es) as [Hext Hsl].
    assert (Hlive : is_live sl = true) by (unfold is_live; rewrite Hext; reflexivity).
    pose proof (Hdg sl Hsl Hlive) as Hd.
    exists sl. cbn [fst snd]. split; [exact Es|]. f_equal. apply digest_inj. congruence.
  Qed.

  Lemma resort_sound : forall (s : cstore vec dg) q k (X : list res),
    NoDup (keys X) -> Forall (live_true s q) X ->
    sound_results s q k (firstn k (stable_sort (rle dle) X)).
  Proof.
    intros s q k X HN HF. repeat split.
    - apply firstn_le_length.
    - apply topk_NoDup, HN.
    - apply topk_sorted; [apply rle_total | apply rle_trans].
    - rewrite Forall_forall in *. intros r Hr. apply HF. exact (topk_In _ _ _ _ _ Hr).
  Qed.

  Section Entry.
    Variable order : list res -> list res.
    Hypothesis order_perm : forall l, Permutation (order l) l.

    Definition hot_filtered (e : engine vec dg) (q : vec) (k : N) : list res :=
      fst (filter_hot digest dg_eqb (e_cold e) (e_hot e) (hot_knn dle dfin metric (N.to_nat (k * 2)) q (e_hot e))).

    Lemma hot_filtered_nodup : forall (e : engine vec dg) q k, hot_wf (e_hot e) -> NoDup (keys (hot_filtered e q k)).
    Proof.
      intros e q k HN. unfold hot_filtered. pose proof (hot_knn_keys_nodup (N.to_nat (k * 2)) q (e_hot e) HN) as HNk.
      rewrite filter_hot_fst by exact HNk. apply NoDup_map_filter, HNk.
    Qed.

    Lemma hot_filtered_live : forall (e : engine vec dg) q k,
      store_wf (e_cold e) -> hot_wf (e_hot e) -> Forall (live_true (e_cold e) q) (hot_filtered e q k).
    Proof.
      intros e q k Hwf HN. unfold hot_filtered. rewrite filter_hot_fst by (apply hot_knn_keys_nodup, HN).
      rewrite Forall_forall. intros r Hr. apply filter_In in Hr. destruct Hr as [Hr Hk].
      eapply kept_hot_live_true; eauto.
    Qed.

    Lemma merged_sound : forall (s : cstore vec dg) q k (hot_r cold_r : list res),
      Forall (live_true s q) hot_r -> Forall (live_true s q) cold_r ->
      sound_results s q k (merge_knn dle order hot_r cold_r k).
    Proof.
      intros s q k hot_r cold_r Hh Hc.
      destruct (merge_sound order order_perm hot_r cold_r k) as [M1 [M2 [M3 M4]]]. cbn zeta in *.
      repeat split; auto. rewrite Forall_forall in *. intros [i d] Hr.
      destruct (M4 i d Hr) as [H|[_ H]]; auto.
    Qed.

    (* a query-cache entry that the cache layer (property C07) keeps valid for (s, q, k) *)
    Definition cache_ok (s : cstore vec dg) (q : vec) (k : nat) (cache : option (list res)) : Prop :=
      forall c, cache = Some c ->
        (length c <= k)%nat /\ NoDup (keys c) /\ sorted_by_distance c
        /\ forall r sl, In r c -> cold_slot s (fst r) = Some sl -> snd r = metric q (cs_vec sl).

    Lemma cache_lookup_sound : forall (s : cstore vec dg) q k ef cache f,
      cache_ok s q k cache -> cache_lookup s ef cache = Some f -> sound_results s q k f.
    Proof.
      intros s q k ef cache f Hok H. unfold cache_lookup, filter_cached in H. destruct ef; [discriminate|].
      destruct cache as [c|]; [|discriminate].
      destruct (length (filter (fun r => cold_exists s (fst r)) c) =? length c)%nat eqn:El; [|discriminate].
      cbn [negb] in H. inversion H; subst. clear H. apply Nat.eqb_eq in El.
      (* nothing was pruned: the served list is the entry itself, and all its ids exist *)
      destruct (filter_same_length _ _ _ El) as [E Hall]. rewrite E.
      destruct (Hok c eq_refl) as [C1 [C2 [C3 C4]]]. repeat split; auto.
      rewrite Forall_forall. intros r Hr. specialize (Hall r Hr). unfold cold_exists in Hall.
      destruct (cold_slot s (fst r)) as [sl|] eqn:Es; [|discriminate].
      exists sl. split; [exact Es | eapply C4; eauto].
    Qed.

    Lemma tiered_search_ok : forall (ann : ann_t vec dist) (e e' : engine vec dg) qc q k ef cache r,
      tiered_search dle dfin metric digest dg_eqb order ann e qc q k ef cache = (Ok r, e') ->
      k <> 0%N /\ e_cold e' = e_cold e /\
      ((exists f, cache_lookup (e_cold e) ef cache = Some f /\ r = mk_response f CacheHit false) \/
       (exists cold_r, (cold_r = [] \/ cold_search ann (e_cold e) QOk q (k * 2) = Ok cold_r) /\
          r_results r = merge_knn dle order (hot_filtered e q k) cold_r (N.to_nat k) /\ r_path r <> CacheHit)).
    Proof.
      intros ann e e' qc q k ef cache r. unfold tiered_search, hot_filtered. intro H.
      apply validated in H; try discriminate. destruct H as [Hk H]. cbn zeta in H. split; [lia|].
      destruct (cache_lookup (e_cold e) ef cache) as [f|].
      { inversion H; subst. split; [reflexivity|]. left. eauto. }
      destruct (filter_hot _ _ _ _ _) as [hot_r hs']. cbn [fst].
      destruct (negb (live_docs (e_cold e) =? 0)%N).
      - destruct (cold_search ann (e_cold e) QOk q (k * 2)) as [cold_r|] eqn:Ec; [|discriminate].
        inversion H; subst. split; [reflexivity|]. right. exists cold_r. cbn [r_results r_path e_cold].
        split; [right; reflexivity|]. split; [reflexivity|]. destruct (is_nil hot_r), (is_nil cold_r); discriminate.
      - inversion H; subst. split; [reflexivity|]. right. exists []. cbn [r_results r_path e_cold is_nil].
        split; [left; reflexivity|]. split; [reflexivity|]. destruct (is_nil hot_r); discriminate.
    Qed.

    Lemma timed_hot_cases : forall (s : cstore vec dg) (hs : hot vec dg) q k t,
      exists hot_r hs' p1 ha,
        timed_hot dle dfin metric digest dg_eqb s hs q k t = (hot_r, hs', p1, ha)
        /\ ((hot_r = [] /\ p1 = true)
            \/ hot_r = fst (filter_hot digest dg_eqb s hs (hot_knn dle dfin metric (N.to_nat (k * 2)) q hs))).
    Proof.
      intros s hs q k t. unfold timed_hot. destruct (filter_hot _ _ _ _ _) as [r0 h0]. cbn [fst].
      destruct (t_hot_closed t); [destruct (t_hot_worker t); [destruct (t_hot_out t)|]|];
        do 4 eexists; (split; [reflexivity|]); auto.
    Qed.

    (* Layers 2 and 3 of knn_search_with_timeouts*, seen from the response: the result is the re-sorted prefix of X,
       where X is the hot list, the cold list (empty when the cold search was skipped or failed) or their merge;
       a response not flagged degraded was not partial after the hot scan (p1), and with a non-empty hot list
       its X is not the cold list alone *)
    Definition timed_result (ann : ann_t vec dist) (s : cstore vec dg) q k (hot_r : list res) (p1 : bool)
               (r : response dist) : Prop :=
      exists cold_r X,
        (cold_r = [] \/ cold_search ann s QOk q (k * 2) = Ok cold_r) /\
        (X = hot_r \/ X = cold_r \/ X = merge_knn dle order hot_r cold_r (N.to_nat k)) /\
        r_results r = firstn (N.to_nat k) (stable_sort (rle dle) X) /\
        (r_degraded r = false ->
           p1 = false /\ (is_nil hot_r = false -> X = hot_r \/ X = merge_knn dle order hot_r cold_r (N.to_nat k))).

    Lemma timed_result_hot : forall ann s q k hot_r p1 path p, (p = false -> p1 = false) ->
      timed_result ann s q k hot_r p1 (mk_response (firstn (N.to_nat k) (stable_sort (rle dle) hot_r)) path p).
    Proof. intros ann s q k hot_r p1 path p Hp. exists [], hot_r. cbn [r_results r_degraded]. auto 7. Qed.

    Lemma timed_finish_ok : forall (ann : ann_t vec dist) (s : cstore vec dg) q k t hot_r hs' p1 ha r e',
      timed_finish dle order ann s q k t (hot_r, hs', p1, ha) = (Ok r, e') ->
      e_cold e' = s /\ timed_result ann s q k hot_r p1 r.
    Proof.
      intros ann s q k t hot_r hs' p1 ha r e' H. unfold timed_finish in H.
      destruct (negb (live_docs s =? 0)%N); [destruct (t_cold_closed t)|]; cbn [andb] in H.
      2, 3: inversion H; subst; split; [reflexivity | apply timed_result_hot; auto; discriminate].
      destruct (t_cold_worker t); cbn [negb] in H.
      2: { destruct (is_nil hot_r); [discriminate|].
           inversion H; subst. split; [reflexivity | apply timed_result_hot; discriminate]. }
      assert (HC : exists cold_r p2,
                match t_cold_out t with
                | TRun => match cold_search ann s QOk q (k * 2) with Ok c => (c, p1) | Err _ => ([], true) end
                | _ => ([], true)
                end = (cold_r, p2)
                /\ (cold_r = [] \/ cold_search ann s QOk q (k * 2) = Ok cold_r)
                /\ (p2 = false -> p1 = false)).
      { destruct (t_cold_out t); [destruct (cold_search ann s QOk q (k * 2))|..];
          do 2 eexists; (split; [reflexivity|]); split; auto; discriminate. }
      destruct HC as (cold_r & p2 & EC & Hc & Hp2). rewrite EC in H. clear EC.
      inversion H; subst. clear H. split; [reflexivity|].
      exists cold_r. eexists. cbn [r_results r_degraded].
      split; [exact Hc|]. split; [|split; [reflexivity|]].
      - destruct (is_nil hot_r), (is_nil cold_r); cbn [negb andb]; auto.
      - intro Hd. split; [auto|]. intros ->. cbn [negb andb]. destruct (is_nil cold_r); cbn [negb]; auto.
    Qed.

    Lemma timed_search_ok : forall (ann : ann_t vec dist) (e e' : engine vec dg) qc q k ef cache t r,
      timed_search dle dfin metric digest dg_eqb order ann e qc q k ef cache t = (Ok r, e') ->
      k <> 0%N /\ e_cold e' = e_cold e /\
      ((exists f, cache_lookup (e_cold e) ef cache = Some f /\ r = mk_response f CacheHit false) \/
       (exists hot_r p1, ((hot_r = [] /\ p1 = true) \/ hot_r = hot_filtered e q k)
                         /\ timed_result ann (e_cold e) q k hot_r p1 r)).
    Proof.
      intros ann e e' qc q k ef cache t r. unfold timed_search. intro H.
      apply validated_timed in H; try discriminate. destruct H as [Hk H]. cbn zeta in H. split; [lia|].
      destruct (cache_lookup (e_cold e) ef cache) as [f|].
      { inversion H; subst. split; [reflexivity|]. left. eauto. }
      destruct (timed_hot_cases (e_cold e) (e_hot e) q k t) as (hot_r & hs' & p1 & ha & EH & Hh).
      rewrite EH in H. apply timed_finish_ok in H. destruct H as [Ee H]. eauto 6.
    Qed.

    Lemma cold_r_sound : forall (ann : ann_t vec dist) (s : cstore vec dg) q k cold_r,
      store_wf s -> ann_contract ann s q -> cold_r = [] \/ cold_search ann s QOk q k = Ok cold_r ->
      NoDup (keys cold_r) /\ Forall (live_true s q) cold_r.
    Proof.
      intros ann s q k cold_r Hwf Hann [->|Ec]; [split; constructor|].
      destruct (cold_sound _ _ _ _ _ _ Hwf Hann Ec) as [[_ [A [_ B]]] _]. auto.
    Qed.

    Lemma hot_r_sound : forall (e : engine vec dg) q k p (hot_r : list res),
      store_wf (e_cold e) -> hot_wf (e_hot e) -> (hot_r = [] /\ p) \/ hot_r = hot_filtered e q k ->
      NoDup (keys hot_r) /\ Forall (live_true (e_cold e) q) hot_r.
    Proof.
      intros e q k p hot_r Hwf Hhot [[-> _]| ->]; [split; constructor|].
      split; [apply hot_filtered_nodup | apply hot_filtered_live]; assumption.
    Qed.

    Lemma timed_result_sound : forall ann (e : engine vec dg) q k p1 hot_r r,
      store_wf (e_cold e) -> ann_contract ann (e_cold e) q ->
      NoDup (keys hot_r) /\ Forall (live_true (e_cold e) q) hot_r ->
      timed_result ann (e_cold e) q k hot_r p1 r -> sound_results (e_cold e) q (N.to_nat k) (r_results r).
    Proof.
      intros ann e q k p1 hot_r r Hwf Hann [HhN HhF] (cold_r & X & Hc & HX & -> & _).
      destruct (cold_r_sound _ _ _ _ _ Hwf Hann Hc) as [HcN HcF].
      destruct (merged_sound (e_cold e) q (N.to_nat k) hot_r cold_r HhF HcF) as [_ [MN [_ MF]]].
      apply resort_sound; destruct HX as [->|[->| ->]]; assumption.
    Qed.

    Definition rank_of (x : res) (l : list res) : nat :=
      length (filter (fun c => cand_lt dle c x) (filter (fun c => dfin (snd c)) l)).

    Lemma rank_in_topk : forall (l : list res) (x : res) (n : nat),
      NoDup (keys l) -> In x l -> dfin (snd x) = true -> (rank_of x l < n)%nat ->
      In x (topk_spec dle dfin n l).
    Proof.
      intros l x n HN Hx Hfin Hr. unfold topk_spec, rank_of in *.
      set (F := filter (fun c : res => dfin (snd c)) l) in *.
      set (S := stable_sort (cand_le dle) F).
      assert (HNF : NoDup (keys F)) by (apply NoDup_map_filter; exact HN).
      assert (HxF : In x F) by (apply filter_In; auto).
      destruct (topk_complete _ cle cle_total cle_trans n F x HxF) as [H|[Hlen Hall]]; [exact H|]. fold S in Hlen, Hall.
      (* the first n all precede x; unless x is one of them they do so strictly, and then its rank is at least n *)
      destruct (in_or_all _ (fun a => cand_lt dle a x = true) (fun a => a = x) (firstn n S)) as [Hlt|[a [Ha ->]]];
        [|exfalso|exact Ha].
      - intros a Ha. unfold cand_lt. destruct (cand_le dle x a) eqn:E; [right|left; reflexivity].
        apply (cand_anti_on F HNF); auto. exact (topk_In _ _ _ _ _ Ha).
      - rewrite <- (Permutation_filter_len _ _ _ _ (sort_perm _ cle F)) in Hr. fold S in Hr.
        rewrite <- (firstn_skipn n S), filter_app, app_length, (filter_all _ _ Hlt) in Hr. lia.
    Qed.

    (* x is a mirror entry whose token matches the canonical record: an acknowledged write that is still
       mirrored in the hot tier and has not been overwritten behind the mirror's back *)
    Definition fresh_mirror (s : cstore vec dg) (x : hentry vec dg) : Prop :=
      canonical_vector_state digest dg_eqb s x = Match.

    Definition cand_of (q : vec) (x : hentry vec dg) : res := (h_id x, metric q (h_vec x)).

    (* THE GUARD: fewer than 2k mirror entries (stale or not) precede x in the (distance, id) order, i.e. x
       survives the hot tier's top-2k cut, which is taken BEFORE stale mirrors are filtered out *)
    Definition survives_hot_cut (q : vec) (k : N) (hs : hot vec dg) (x : hentry vec dg) : Prop :=
      (rank_of (cand_of q x) (hot_cands metric q hs) < N.to_nat (k * 2))%nat.

    Definition present_or_beaten (q : vec) (k : N) (x : hentry vec dg) (out : list res) : Prop :=
      In (cand_of q x) out \/
      (length out = N.to_nat k /\ forall o, In o out -> dle (snd o) (metric q (h_vec x)) = true).

    Lemma cand_in_cands : forall q (hs : hot vec dg) x, In x hs -> In (cand_of q x) (hot_cands metric q hs).
    Proof. intros q hs x Hx. unfold hot_cands, cand_of. apply in_map_iff. exists x. auto. Qed.

    Lemma fresh_in_hot_r : forall (e : engine vec dg) q k x,
      hot_wf (e_hot e) -> In x (e_hot e) -> fresh_mirror (e_cold e) x -> dfin (metric q (h_vec x)) = true ->
      survives_hot_cut q k (e_hot e) x -> In (cand_of q x) (hot_filtered e q k).
    Proof.
      intros e q k x HN Hx Hf Hfin Hg. unfold hot_filtered.
      rewrite filter_hot_fst by (apply hot_knn_keys_nodup; exact HN).
      apply filter_In. split.
      - rewrite hot_heap_is_topk by exact HN. apply rank_in_topk; auto using cand_in_cands.
        unfold hot_cands. rewrite map_map. exact HN.
      - unfold keep, cand_of. cbn [fst]. rewrite hot_find_in by assumption. rewrite Hf. reflexivity.
    Qed.

    (* what the recent-write argument needs from the filtered hot candidates: x's candidate is among them, or
       they are n candidates (n = 2k, more than the k returned) that are all at least as close as x *)
    Definition hot_ok (q : vec) (n : nat) (x : hentry vec dg) (hot_r : list res) : Prop :=
      In (cand_of q x) hot_r \/
      (length hot_r = n /\ forall a, In a hot_r -> dle (snd a) (metric q (h_vec x)) = true).

    Lemma merge_pob : forall q k n x (hot_r cold_r : list res),
      (N.to_nat k < n)%nat -> NoDup (keys hot_r) -> hot_ok q n x hot_r ->
      present_or_beaten q k x (merge_knn dle order hot_r cold_r (N.to_nat k)).
    Proof.
      intros q k n x hot_r cold_r Hk HN [Hin|[Hlen Hall]].
      - apply (merge_complete order order_perm), merge_hot_member; assumption.
      - set (out := merge_knn dle order hot_r cold_r (N.to_nat k)).
        assert (Hea : forall a, In a hot_r ->
                  In a out \/ (length out = N.to_nat k /\ forall o, In o out -> rle dle o a = true)).
        { intros [i d] Ha. apply (merge_complete order order_perm). apply merge_hot_member; assumption. }
        destruct (in_or_all _ _ _ _ Hea) as [Hincl|[a [Ha [A B]]]].
        + (* more than k distinct hot candidates cannot all be among at most k results *)
          exfalso. assert (HNl : NoDup hot_r) by (eapply NoDup_map_inv; exact HN).
          pose proof (NoDup_incl_length HNl Hincl) as L1.
          assert (L2 : (length out <= N.to_nat k)%nat) by apply firstn_le_length. lia.
        + right. split; [exact A|]. intros o Ho. eapply dle_trans; [apply (B o Ho) | apply Hall, Ha].
    Qed.

    Lemma resort_pob : forall q k n x (hot_r : list res),
      (N.to_nat k <= n)%nat -> hot_ok q n x hot_r ->
      present_or_beaten q k x (firstn (N.to_nat k) (stable_sort (rle dle) hot_r)).
    Proof.
      intros q k n x hot_r Hk [Hin|[Hlen Hall]].
      - exact (topk_complete _ _ rle_total rle_trans _ _ _ Hin).
      - right. split.
        + rewrite firstn_length, sort_length, Hlen. lia.
        + intros o Ho. apply Hall. exact (topk_In _ _ _ _ _ Ho).
    Qed.

    Lemma hot_ok_not_nil : forall q n x hot_r, (0 < n)%nat -> hot_ok q n x hot_r -> is_nil hot_r = false.
    Proof. intros q n x hot_r Hn [Hin|[Hlen _]]; destruct hot_r; try reflexivity; [destruct Hin | cbn in Hlen; lia]. Qed.

    Lemma recent_core : forall (ann : ann_t vec dist) (e e' : engine vec dg) qc q k ef cache r x,
      hot_wf (e_hot e) ->
      tiered_search dle dfin metric digest dg_eqb order ann e qc q k ef cache = (Ok r, e') ->
      r_path r <> CacheHit ->
      hot_ok q (N.to_nat (k * 2)) x (hot_filtered e q k) ->
      present_or_beaten q k x (r_results r).
    Proof.
      intros ann e e' qc q k ef cache r x Hhot H Hpath Hok.
      destruct (tiered_search_ok _ _ _ _ _ _ _ _ _ H) as (Hk & _ & [(f & _ & ->)|(cold_r & _ & -> & _)]);
        [elim Hpath; reflexivity|].
      apply (merge_pob q k (N.to_nat (k * 2))); [lia | apply hot_filtered_nodup, Hhot | exact Hok].
    Qed.

    Lemma recent_core_timed : forall (ann : ann_t vec dist) (e e' : engine vec dg) qc q k ef cache t r x,
      hot_wf (e_hot e) ->
      timed_search dle dfin metric digest dg_eqb order ann e qc q k ef cache t = (Ok r, e') ->
      r_path r <> CacheHit -> r_degraded r = false ->
      hot_ok q (N.to_nat (k * 2)) x (hot_filtered e q k) ->
      present_or_beaten q k x (r_results r).
    Proof.
      intros ann e e' qc q k ef cache t r x Hhot H Hpath Hdeg Hok.
      destruct (timed_search_ok _ _ _ _ _ _ _ _ _ _ H)
        as (Hk & _ & [(f & _ & ->)|(hot_r & p1 & Hh & cold_r & X & _ & _ & -> & Hd)]); [elim Hpath; reflexivity|].
      (* not degraded: the hot scan ran, and its candidates (non-empty by hot_ok) were not dropped *)
      destruct (Hd Hdeg) as [-> HX]. destruct Hh as [[_ ?]| ->]; [discriminate|].
      destruct (HX (hot_ok_not_nil q (N.to_nat (k * 2)) x _ ltac:(lia) Hok)) as [->| ->].
      - apply (resort_pob q k (N.to_nat (k * 2))); [lia | exact Hok].
      - (* the merge is already sorted and at most k long: sorting and truncating it again changes nothing *)
        destruct (merge_sound order order_perm (hot_filtered e q k) cold_r (N.to_nat k)) as (L & _ & S & _).
        rewrite (topk_of_sorted _ _ _ _ S L).
        apply (merge_pob q k (N.to_nat (k * 2))); [lia | apply hot_filtered_nodup, Hhot | exact Hok].
    Qed.

    Definition all_fresh (e : engine vec dg) : Prop := forall y, In y (e_hot e) -> fresh_mirror (e_cold e) y.

    Lemma all_fresh_hot_ok : forall (e : engine vec dg) q k x,
      hot_wf (e_hot e) -> all_fresh e -> In x (e_hot e) -> dfin (metric q (h_vec x)) = true ->
      hot_ok q (N.to_nat (k * 2)) x (hot_filtered e q k).
    Proof.
      intros e q k x HN Hall Hx Hfin. unfold hot_filtered.
      rewrite filter_hot_fst by (apply hot_knn_keys_nodup, HN).
      (* nothing is filtered out, so the candidates are the hot tier's own top 2k *)
      rewrite filter_all.
      2:{ intros a Ha. destruct (hot_knn_in _ _ _ _ HN Ha) as [e0 [He0 ->]].
          unfold keep. cbn [fst]. rewrite hot_find_in by assumption. rewrite (Hall e0 He0). reflexivity. }
      rewrite hot_heap_is_topk by exact HN. unfold topk_spec.
      destruct (topk_complete _ cle cle_total cle_trans (N.to_nat (k * 2))
                  (filter (fun c : res => dfin (snd c)) (hot_cands metric q (e_hot e))) (cand_of q x)) as [H|[HL HA]].
      - apply filter_In. split; [apply cand_in_cands, Hx | exact Hfin].
      - left. exact H.
      - right. split; [exact HL|]. intros a Ha. exact (cle_dle _ _ (HA a Ha)).
    Qed.

  End Entry.

  Hypothesis dg_eqb_refl : forall a : dg, dg_eqb a a = true.

  Definition mirrors_ok (e : engine vec dg) : Prop := hot_wf (e_hot e) /\ all_fresh e.

  Lemma ext_is_tombstone : forall i j (a : cslot vec dg), ext_is i (tombstone j a) = ext_is i a && negb (ext_is j a).
  Proof.
    intros i j a. unfold tombstone. destruct (ext_is j a) eqn:Ej; [|rewrite andb_true_r; reflexivity].
    unfold ext_is at 1. cbn [cs_ext]. rewrite andb_false_r. reflexivity.
  Qed.

  Lemma ext_is_excl : forall i j (a : cslot vec dg), i <> j -> ext_is i a = true -> ext_is j a = false.
  Proof.
    intros i j a Hne. unfold ext_is. destruct (cs_ext a); [|discriminate].
    intro H. apply N.eqb_eq in H. subst. apply N.eqb_neq. congruence.
  Qed.

  Lemma cold_slot_tombstone_other : forall (s : cstore vec dg) i j, i <> j ->
    cold_slot (map (tombstone j) s) i = cold_slot s i.
  Proof.
    intros s i j Hne. unfold cold_slot. induction s as [|a s IH]; [reflexivity|].
    cbn [map find]. rewrite ext_is_tombstone, IH. destruct (ext_is i a) eqn:Ei; cbn [andb]; [|reflexivity].
    unfold tombstone. rewrite (ext_is_excl i j a Hne Ei). reflexivity.
  Qed.

  Lemma cold_slot_tombstone_same : forall (s : cstore vec dg) j, cold_slot (map (tombstone j) s) j = None.
  Proof.
    intros s j. unfold cold_slot. induction s as [|a s IH]; [reflexivity|].
    cbn [map find]. rewrite ext_is_tombstone, andb_negb_r. exact IH.
  Qed.

  Lemma cold_slot_app1 : forall (s : cstore vec dg) n i,
    cold_slot (s ++ [n]) i = match cold_slot s i with Some x => Some x | None => if ext_is i n then Some n else None end.
  Proof.
    intros s n i. unfold cold_slot. induction s as [|a s IH]; [reflexivity|].
    cbn [app find]. destruct (ext_is i a); [reflexivity | exact IH].
  Qed.

  Lemma cold_token_insert_other : forall (s : cstore vec dg) i j v, i <> j ->
    cold_token (cold_insert digest s j v) i = cold_token s i.
  Proof.
    intros s i j v Hne. unfold cold_token, cold_insert. rewrite cold_slot_app1, cold_slot_tombstone_other by exact Hne.
    destruct (cold_slot s i); [reflexivity|]. unfold ext_is. cbn [cs_ext].
    destruct (N.eqb_spec j i); [congruence | reflexivity].
  Qed.

  Lemma cold_token_insert_same : forall (s : cstore vec dg) j v,
    cold_token (cold_insert digest s j v) j = Some (next_version s j, digest v).
  Proof.
    intros s j v. unfold cold_token, cold_insert. rewrite cold_slot_app1, cold_slot_tombstone_same.
    unfold ext_is. cbn [cs_ext]. rewrite N.eqb_refl. reflexivity.
  Qed.

  Lemma cold_token_delete_other : forall (s : cstore vec dg) i j, i <> j ->
    cold_token (cold_delete s j) i = cold_token s i.
  Proof. intros. unfold cold_token, cold_delete. rewrite cold_slot_tombstone_other by assumption. reflexivity. Qed.

  Lemma cold_slot_compact : forall (s : cstore vec dg) i, cold_slot (filter (@is_live vec dg) s) i = cold_slot s i.
  Proof.
    intros s i. unfold cold_slot. induction s as [|a s IH]; [reflexivity|].
    cbn [filter find]. unfold is_live at 1. unfold ext_is at 2. destruct (cs_ext a) as [x|] eqn:Ea.
    - cbn [find]. unfold ext_is at 1. rewrite Ea. destruct (x =? i)%N; [reflexivity | exact IH].
    - exact IH.
  Qed.

  Lemma fresh_by_token : forall (s s' : cstore vec dg) y,
    cold_token s' (h_id y) = cold_token s (h_id y) -> fresh_mirror s y -> fresh_mirror s' y.
  Proof. intros s s' y E. unfold fresh_mirror, canonical_vector_state. rewrite E. auto. Qed.

  Lemma fold_insert_other : forall (docs : list (N * vec * bool)) (s : cstore vec dg) i,
    ~ In i (map (fun d => fst (fst d)) docs) ->
    cold_token (fold_left (fun acc d => match d with (id, v, true) => cold_insert digest acc id v | _ => acc end) docs s) i
    = cold_token s i.
  Proof.
    intro docs. induction docs as [|[[id v] b] t IH]; intros s i Hn; [reflexivity|].
    cbn [fold_left]. cbn [map fst In] in Hn. rewrite IH by (intro; apply Hn; right; assumption).
    destruct b; [|reflexivity]. apply cold_token_insert_other. intro E. apply Hn. left. congruence.
  Qed.

  Lemma hot_remove_id : forall (hs : hot vec dg) id y, In y (hot_remove hs id) -> In y hs /\ h_id y <> id.
  Proof.
    intros hs id y H. unfold hot_remove in H. apply filter_In in H. destruct H as [H1 H2]. split; [exact H1|].
    apply negb_true_iff, N.eqb_neq in H2. exact H2.
  Qed.

  Lemma hot_remove_all_id : forall (hs : hot vec dg) ids y, In y (hot_remove_all hs ids) -> In y hs /\ ~ In (h_id y) ids.
  Proof.
    intros hs ids y H. unfold hot_remove_all in H. apply filter_In in H. destruct H as [H1 H2]. split; [exact H1|].
    apply negb_true_iff in H2. change (existsb (N.eqb (h_id y)) ids = false) in H2.
    intro Hin. apply existsb_eqb_In in Hin. congruence.
  Qed.

  Lemma wstep_mirrors_ok : forall (e : engine vec dg) (o : wop vec), mirrors_ok e -> mirrors_ok (wstep digest e o).
  Proof.
    intros e o [HN Hall]. unfold mirrors_ok, hot_wf, all_fresh in *. destruct o as [id v acc|id|docs| | |ids]; cbn [wstep].
    - destruct acc; [|split; assumption]. cbn [e_hot e_cold]. split.
      + rewrite map_app. cbn [map h_id]. apply NoDup_snoc; [apply NoDup_map_filter; exact HN|].
        intro Hin. apply in_map_iff in Hin. destruct Hin as [y [Hy Hin]].
        apply hot_remove_id in Hin. destruct Hin as [_ Hne]. congruence.
      + intros y Hy. apply in_app_or in Hy. destruct Hy as [Hy|[<-|[]]].
        * apply hot_remove_id in Hy. destruct Hy as [Hy Hne].
          eapply fresh_by_token; [|apply Hall, Hy]. apply cold_token_insert_other. exact Hne.
        * unfold fresh_mirror, canonical_vector_state. cbn [h_id h_vec h_ver h_dg].
          rewrite cold_token_insert_same. unfold tok_eqb. cbn [fst snd].
          rewrite N.eqb_refl, !dg_eqb_refl. reflexivity.
    - cbn [e_hot e_cold]. split; [apply NoDup_map_filter; exact HN|].
      intros y Hy. apply hot_remove_id in Hy. destruct Hy as [Hy Hne].
      eapply fresh_by_token; [|apply Hall, Hy]. apply cold_token_delete_other. exact Hne.
    - cbn [e_hot e_cold]. split; [apply NoDup_map_filter; exact HN|].
      intros y Hy. apply hot_remove_all_id in Hy. destruct Hy as [Hy Hn].
      eapply fresh_by_token; [|apply Hall, Hy]. apply fold_insert_other. exact Hn.
    - cbn [e_hot]. split; [constructor | intros y []].
    - cbn [e_hot e_cold]. split; [exact HN|]. intros y Hy.
      eapply fresh_by_token; [|apply Hall, Hy]. unfold cold_token. rewrite cold_slot_compact. reflexivity.
    - cbn [e_hot e_cold]. split; [apply NoDup_map_filter; exact HN|].
      intros y Hy. apply hot_remove_all_id in Hy. destruct Hy as [Hy _]. apply Hall, Hy.
  Qed.

  Theorem api_history_mirrors_ok : forall (ops : list (wop vec)) (e0 : engine vec dg),
    e_hot e0 = [] -> mirrors_ok (wrun digest e0 ops).
  Proof.
    intros ops e0 H0. unfold wrun. apply fold_left_inv; [intros; apply wstep_mirrors_ok; assumption|].
    unfold mirrors_ok, hot_wf, all_fresh. rewrite H0. split; [constructor | intros y []].
  Qed.
End KnnFacts.

Open Scope N_scope.

Definition search_k_upper (k total : N) : N := N.min 10000 (N.max total k).

(* for k > 0 every exit of compute_search_k is its final clamp, with k in place of `expected + headroom`
   when there are no tombstones *)
Lemma search_k_clamp : forall fx k live total, k <> 0 ->
  compute_search_k_with fx k live total =
  N.min (N.max (if (live =? 0) || (total <=? live) then k else N.min (fx + N.max (k / 4) 2) usize_max) k)
        (search_k_upper k total).
Proof.
  intros fx k live total Hk. unfold compute_search_k_with, search_k_upper.
  rewrite (proj2 (N.eqb_neq k 0) Hk). cbn zeta.
  destruct (N.leb_spec (N.min 10000 (N.max total k)) k) as [H|H]; cbn [orb].
  - symmetry. apply N.min_r, (N.le_trans _ _ _ H), N.le_max_r.
  - destruct (N.eqb_spec total 0) as [->|_].
    + exfalso. rewrite N.max_0_l in H. exact (N.lt_irrefl _ (N.lt_le_trans _ _ _ H (N.le_min_r _ _))).
    + destruct (live =? 0); cbn [orb]; [rewrite N.max_id; reflexivity|].
      destruct (total <=? live); [rewrite N.max_id|]; reflexivity.
Qed.

Lemma search_k_bounds_with : forall fx k live total,
  let r := compute_search_k_with fx k live total in
  (k = 0 -> r = 0)
  /\ (1 <= k <= 10000 -> k <= r /\ r <= search_k_upper k total /\ r <= N.max k (N.min 10000 total))
  /\ (r <= 10000)
  /\ (live = 0 \/ total <= live -> k <= 10000 -> r = k).
Proof.
  intros fx k live total. cbn zeta. destruct (N.eq_dec k 0) as [->|Hk].
  { change (compute_search_k_with fx 0 live total) with 0. split; [reflexivity|].
    split; [intros [H _]; destruct (H eq_refl)|]. split; [discriminate | reflexivity]. }
  rewrite search_k_clamp by exact Hk.
  assert (Hk' : k <= 10000 -> k <= search_k_upper k total)
    by (intro; apply N.min_glb; [assumption | apply N.le_max_r]).
  split; [contradiction|]. split; [intros [_ H]; split; [|split]|split].
  - apply N.min_glb; [apply N.le_max_r | exact (Hk' H)].
  - apply N.le_min_r.
  - apply (N.le_trans _ _ _ (N.le_min_r _ _)). unfold search_k_upper. clear. lia.
  - exact (N.le_trans _ _ _ (N.le_min_r _ _) (N.le_min_l _ _)).
  - intros Hl H. replace ((live =? 0) || (total <=? live)) with true.
    + rewrite N.max_id. apply N.min_l, Hk', H.
    + symmetry. apply orb_true_iff. rewrite N.eqb_eq, N.leb_le. exact Hl.
Qed.

(* `.clamp(k, upper_bound)` is never reached with k > upper_bound: no panic *)
Lemma search_k_no_panic : forall fx k live total, compute_search_k_panics_with fx k live total = false.
Proof.
  intros fx k live total. unfold compute_search_k_panics_with. cbn zeta.
  destruct (N.leb_spec (N.min 10000 (N.max total k)) k) as [|H]; cbn [orb]; [destruct (k =? 0); reflexivity|].
  destruct (k =? 0), (total =? 0), (live =? 0), (total <=? live); try reflexivity. apply N.ltb_ge, N.lt_le_incl, H.
Qed.

Lemma ceil_div_mul : forall a l, 0 < l -> a <= (a + l - 1) / l * l.
Proof.
  intros a l Hl. pose proof (N.div_mod (a + l - 1) l ltac:(lia)) as E.
  pose proof (N.mod_lt (a + l - 1) l ltac:(lia)) as M. lia.
Qed.

Lemma search_k_oversampling_with : forall fx k live total,
  0 < live -> 1 <= k <= 10000 ->
  search_k_fsite_exact k live total <= fx ->
  let r := compute_search_k_with fx k live total in
  r = search_k_upper k total
  \/ (total <= live /\ r = k)
  \/ (N.max (k / 4) 2 <= r /\ k * total <= (r - N.max (k / 4) 2) * live).
Proof.
  intros fx k live total Hl Hk Hfx. cbn zeta.
  rewrite search_k_clamp by (apply N.neq_0_lt_0, N.lt_le_trans with 1; [reflexivity | apply Hk]).
  unfold search_k_fsite_exact in Hfx. cbn zeta in Hfx. rewrite ?N.mul_1_l, ?N.mul_1_r in Hfx.
  rewrite (proj2 (N.eqb_neq live 0)) by apply N.neq_0_lt_0, Hl. cbn [orb].
  assert (Hub : search_k_upper k total <= 10000) by apply N.le_min_l.
  destruct (N.leb_spec total live) as [Htl|_].
  { rewrite N.max_id. destruct (N.min_spec k (search_k_upper k total)) as [[_ E]|[_ E]]; auto. }
  assert (Hum : 10000 <= usize_max) by (vm_compute; discriminate).
  pose proof (ceil_div_mul (k * total) live Hl) as Hc.
  revert Hfx Hc Hub. generalize ((k * total + live - 1) / live), (N.max (k / 4) 2), (search_k_upper k total).
  intros c h ub Hfx Hc Hub.
  (* below the upper bound, hence below usize::MAX, neither clamp is active: r >= fx + headroom *)
  assert (H : N.min (N.max (N.min (fx + h) usize_max) k) ub = ub
              \/ c + h <= N.min (N.max (N.min (fx + h) usize_max) k) ub).
  { clear -Hfx Hub Hum. revert Hfx Hum. generalize usize_max. lia. }
  revert H. generalize (N.min (N.max (N.min (fx + h) usize_max) k) ub). intros r [H|H]; [left; exact H | right; right].
  split; [clear -H; lia|].
  apply (N.le_trans _ _ _ Hc), N.mul_le_mono_r. clear -H. lia.
Qed.

(* Instance: distances are naturals (N.leb), a "vector" is its own distance to the query, the digest is the
   identity (injective).  k = 1.  Documents 1 and 2 were written through the engine (mirrored, version 1) and
   then overwritten behind the mirrors' back (bulk load: version 2, far away: 50, 60).  Document 9 is an
   acknowledged write at distance 5, mirrored with a matching token.  The ANN oracle — any function meeting
   the contract — returns only slot 0.  The two stale mirrors (distances 1 and 2) fill the hot tier's top-2k,
   are then filtered out, and the response is [(1, 50)]: full, not degraded, and without document 9, which
   is strictly closer (5 < 50) than the k-th returned document. *)
Module Witness.
  Definition dleN : N -> N -> bool := N.leb.
  Definition metricN (q v : N) : N := v.
  Definition digestN (v : N) : N := v.
  Definition cold : cstore N N :=
    [ mk_cslot (Some 1) 50 2 50; mk_cslot (Some 2) 60 2 60; mk_cslot (Some 9) 5 1 5 ].
  Definition x9 : hentry N N := mk_hentry 9 5 1 5.
  Definition hotl : hot N N := [ mk_hentry 1 1 1 1; mk_hentry 2 2 1 2; x9 ].
  Definition eng : engine N N := mk_engine cold hotl.
  Definition annw : ann_t N N := fun _ sk => Some (firstn (N.to_nat sk) [(0, 50)]).
  Definition run := tiered_search dleN (fun _ => true) metricN digestN N.eqb (fun l => l) annw eng QOk 0 1 (Some 10000) None.
End Witness.

Lemma dleN_total : forall a b, Witness.dleN a b = true \/ Witness.dleN b a = true.
Proof. intros a b. unfold Witness.dleN. rewrite !N.leb_le. apply N.le_ge_cases. Qed.
Lemma dleN_trans : forall a b c, Witness.dleN a b = true -> Witness.dleN b c = true -> Witness.dleN a c = true.
Proof. intros a b c. unfold Witness.dleN. rewrite !N.leb_le. apply N.le_trans. Qed.

Lemma witness_contract : ann_contract N N N Witness.dleN Witness.metricN Witness.annw Witness.cold 0.
Proof.
  intros sk raw H. unfold Witness.annw in H. inversion H; subst. clear H.
  destruct (N.to_nat sk) as [|n] eqn:E; cbn [firstn].
  - repeat split; try constructor. intros i d sl [].
  - rewrite firstn_nil. repeat split.
    + apply le_n_S, Nat.le_0_l.
    + cbn. constructor; [intros []|constructor].
    + constructor; constructor.
    + intros i d sl [Hin|[]] Hn. inversion Hin; subst. cbn in Hn. inversion Hn; subst. reflexivity.
Qed.

Lemma witness_refutes :
  store_wf N N Witness.digestN Witness.cold
  /\ hot_wf N N Witness.hotl
  /\ (exists r e', Witness.run = (Ok r, e')
        /\ r_path r <> CacheHit /\ r_degraded r = false
        /\ In Witness.x9 Witness.hotl
        /\ fresh_mirror N N Witness.digestN N.eqb Witness.cold Witness.x9
        /\ ~ present_or_beaten N N N Witness.dleN Witness.metricN 0 1 Witness.x9 (r_results r)
        /\ ~ survives_hot_cut N N N Witness.dleN (fun _ => true) Witness.metricN 0 1 Witness.hotl Witness.x9).
Proof.
  split; [|split].
  - split.
    + vm_compute. repeat constructor; cbn; intuition discriminate.
    + intros sl Hin _. cbn in Hin. destruct Hin as [<-|[<-|[<-|[]]]]; reflexivity.
  - unfold hot_wf. vm_compute. repeat constructor; cbn; intuition discriminate.
  - eexists. eexists. split; [vm_compute; reflexivity|]. cbn [r_path r_degraded r_results].
    split; [discriminate|]. split; [reflexivity|]. split; [right; right; left; reflexivity|].
    split; [vm_compute; reflexivity|]. split.
    + unfold present_or_beaten. vm_compute. intros [[H|[]]|[_ H]].
      * discriminate.
      * specialize (H (1, 50) (or_introl eq_refl)). discriminate.
    + unfold survives_hot_cut. vm_compute. lia.
Qed.
