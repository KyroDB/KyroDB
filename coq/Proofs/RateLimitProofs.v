(* C19 — Model/RateLimit.v with its calls interleaved: every bound is read off one invariant, Inv. *)
From Coq Require Import QArith Qminmax List NArith ZArith Bool Lqa Lia.
From Kyro Require Import Model.RateLimit.
Import ListNotations.
Open Scope Q_scope.

Definition qn (n : nat) : Q := inject_Z (Z.of_nat n).

Lemma qn_add n m : qn (n + m) == qn n + qn m.
Proof. unfold qn. rewrite Nat2Z.inj_add, inject_Z_plus. reflexivity. Qed.

Lemma qn_nonneg n : 0 <= qn n.
Proof.
  unfold qn. change 0 with (inject_Z 0). rewrite <- Zle_Qle. lia.
Qed.

Lemma qn_le n m : (n <= m)%nat -> qn n <= qn m.
Proof. intro H. unfold qn. rewrite <- Zle_Qle. lia. Qed.

Definition b2n (b : bool) : nat := if b then 1%nat else 0%nat.

Ltac proj_red := cbn [b_tokens b_cap b_rate b_last c_lim c_calls l_now l_tenants l_global] in *.

Lemma t_get_set ts t b t' :
  t_get (t_set ts t b) t' = if N.eqb t t' then Some b else t_get ts t'.
Proof.
  induction ts as [|[k b0] r IH]; cbn [t_set t_get].
  - reflexivity.
  - destruct (N.eqb k t) eqn:Hkt; cbn [t_get].
    + apply N.eqb_eq in Hkt. subst k. destruct (N.eqb t t'); reflexivity.
    + rewrite IH. destruct (N.eqb k t') eqn:Hkt'; [|reflexivity].
      apply N.eqb_eq in Hkt'. subst k. rewrite N.eqb_sym, Hkt. reflexivity.
Qed.

Lemma count_set_fresh p cs c st :
  call_get cs c = None ->
  count_calls p (call_set cs c st) = (count_calls p cs + b2n (p st))%nat.
Proof.
  induction cs as [|[k s0] r IH]; cbn [call_get call_set count_calls]; intro H.
  - destruct (p st); reflexivity.
  - destruct (Nat.eqb k c); [discriminate|]. cbn [count_calls].
    rewrite (IH H). destruct (p s0); lia.
Qed.

Lemma count_set_existing p cs c old st :
  call_get cs c = Some old ->
  (count_calls p (call_set cs c st) + b2n (p old) = count_calls p cs + b2n (p st))%nat.
Proof.
  induction cs as [|[k s0] r IH]; cbn [call_get call_set count_calls]; intro H.
  - discriminate.
  - destruct (Nat.eqb k c) eqn:E.
    + inversion H; subst s0. cbn [count_calls]. destruct (p old), (p st); cbn [b2n]; lia.
    + cbn [count_calls]. specialize (IH H). destruct (p s0); lia.
Qed.

Lemma count_set_same p cs c old st :
  call_get cs c = Some old -> p st = p old -> count_calls p (call_set cs c st) = count_calls p cs.
Proof. intros H E. pose proof (count_set_existing p cs c old st H) as Hc. rewrite E in Hc. lia. Qed.

Definition bucket_ok (b : bucket) (now : Q) : Prop :=
  0 <= b_tokens b /\ b_tokens b <= b_cap b /\ 0 <= b_rate b /\ 0 <= b_last b /\ b_last b <= now.

(* a bucket that has handed out h tokens which were not given back *)
Definition binv (b : bucket) (now : Q) (h : nat) : Prop :=
  bucket_ok b now /\ b_tokens b + qn h <= b_cap b + b_rate b * b_last b.

Lemma refill_ok b now : bucket_ok b now -> bucket_ok (refill b now) now.
Proof.
  unfold bucket_ok, refill. intros (H0 & H1 & H2 & H3 & H4).
  destruct (Qlt_le_dec 0 (now - b_last b)) as [Hlt|Hle]; proj_red.
  - destruct (Q.min_spec (b_tokens b + (now - b_last b) * b_rate b) (b_cap b)) as [[Ha Hb]|[Ha Hb]];
      rewrite Hb; repeat split; try lra.
    assert (0 <= (now - b_last b) * b_rate b) by (apply Qmult_le_0_compat; lra). lra.
  - repeat split; lra.
Qed.

Lemma refill_cap b now : b_cap (refill b now) = b_cap b /\ b_rate (refill b now) = b_rate b.
Proof. unfold refill. destruct (Qlt_le_dec 0 (now - b_last b)); proj_red; auto. Qed.

Lemma binv_refill b now h : binv b now h -> binv (refill b now) now h.
Proof.
  intros [Hok Hb]. split; [exact (refill_ok b now Hok)|]. destruct Hok as (H0 & H1 & H2 & H3 & H4). unfold refill.
  destruct (Qlt_le_dec 0 (now - b_last b)) as [Hlt|Hle]; proj_red; [|exact Hb].
  pose proof (Q.le_min_l (b_tokens b + (now - b_last b) * b_rate b) (b_cap b)). lra.
Qed.

Lemma binv_try_consume b now b1 r h : binv b now h -> try_consume b now = (b1, r) -> binv b1 now (h + b2n r).
Proof.
  intros H. apply (binv_refill b now h) in H. destruct H as [Ho Hb]. unfold try_consume, binv.
  destruct (Qle_bool 1 (b_tokens (refill b now))) eqn:E; intro H; inversion H; subst; clear H; rewrite qn_add.
  - apply Qle_bool_iff in E. change (qn (b2n true)) with 1. unfold bucket_ok in *. proj_red.
    destruct Ho as (A & B & C & D & F). repeat split; lra.
  - change (qn (b2n false)) with 0. split; [exact Ho|lra].
Qed.

Lemma try_consume_cap b now b1 r :
  try_consume b now = (b1, r) -> b_cap b1 = b_cap b /\ b_rate b1 = b_rate b.
Proof.
  unfold try_consume. pose proof (refill_cap b now) as [A B].
  destruct (Qle_bool 1 (b_tokens (refill b now))); intro H; inversion H; subst; proj_red; auto.
Qed.

Lemma binv_refund b now h : binv b now (h + 1) -> binv (refund_one b) now h.
Proof.
  unfold binv, bucket_ok, refund_one. rewrite qn_add. change (qn 1) with 1. intros ((H0 & H1 & H2 & H3 & H4) & Hb). proj_red.
  destruct (Q.min_spec (b_tokens b + 1) (b_cap b)) as [[Ha Hm]|[Ha Hm]]; rewrite Hm; repeat split; lra.
Qed.

Lemma binv_new qps now : 0 <= now -> binv (bucket_new qps now) now 0.
Proof.
  intro H. assert (Hq : 0 <= inject_Z (Z.of_N qps)) by (change 0 with (inject_Z 0); rewrite <- Zle_Qle; lia).
  pose proof (Qmult_le_0_compat _ _ Hq H). unfold binv, bucket_ok, bucket_new. proj_red. change (qn 0) with 0.
  repeat split; lra.
Qed.

Lemma binv_later b now now' h : now <= now' -> binv b now h -> binv b now' h.
Proof. unfold binv, bucket_ok. intros H ((A & B & C & D & E) & F). repeat split; lra. Qed.

Lemma binv_bound b now h : binv b now h -> qn h <= b_cap b + b_rate b * now.
Proof.
  unfold binv, bucket_ok. intros ((A & B & C & D & E) & Hb).
  assert (b_rate b * b_last b <= b_rate b * now).
  { rewrite (Qmult_comm (b_rate b) (b_last b)), (Qmult_comm (b_rate b) now). apply Qmult_le_compat_r; lra. }
  lra.
Qed.

(* calls currently holding a token of tenant t: taken, and not refunded / refused *)
Definition holds_t (t : N) (st : cstatus) : bool :=
  match st with
  | CTenantOk t' | CNeedRefund t' => N.eqb t' t
  | CDone t' r => r && N.eqb t' t
  end.

Definition needs_refund_t (t : N) (st : cstatus) : bool :=
  match st with CNeedRefund t' => N.eqb t' t | _ => false end.

(* `none`: what is known when the bucket does not exist *)
Definition held (now : Q) (ob : option bucket) (h : nat) (none : Prop) : Prop :=
  match ob with Some b => binv b now h | None => none end.

Lemma held_later now now' ob h none : now <= now' -> held now ob h none -> held now' ob h none.
Proof. intros H. destruct ob; [apply binv_later, H|exact (fun x => x)]. Qed.

(* a tenant without a bucket holds no token *)
Definition tenant_inv (now : Q) (calls : list (nat * cstatus)) (t : N) (ob : option bucket) : Prop :=
  held now ob (count_calls (holds_t t) calls) (count_calls (holds_t t) calls = 0%nat).

Definition global_inv (now : Q) (calls : list (nat * cstatus)) (og : option bucket) : Prop :=
  held now og (count_calls is_admitted_any calls) True.

Definition Inv (s : cstate) : Prop :=
  let l := c_lim s in
  0 <= l_now l /\
  (forall t, tenant_inv (l_now l) (c_calls s) t (t_get (l_tenants l) t)) /\
  global_inv (l_now l) (c_calls s) (l_global l).

Lemma inv_init g : Inv (cinit g).
Proof.
  unfold Inv, cinit, limiter_new. proj_red.
  split; [lra|]. split; [reflexivity|]. destruct g as [q|]; [apply binv_new; lra|exact I].
Qed.

Lemma holds_admitted_le t cs :
  (count_calls (is_admitted t) cs <= count_calls (holds_t t) cs)%nat.
Proof.
  induction cs as [|[k st] r IH]; cbn [count_calls]; [lia|].
  destruct st as [t'|t'|t' [|]]; cbn [is_admitted holds_t andb]; try destruct (N.eqb t' t); lia.
Qed.

Ltac inv_some :=
  match goal with
  | H : Some ?a = Some ?b |- _ => injection H as H; try subst b
  end.

(* A step touches one call c, at most one tenant bucket and the global bucket; for every other bucket the
   held count is unchanged because the old and the new status of c count the same. *)
Lemma inv_step s e s' : Inv s -> cstep s e = Some s' ->
  Inv s' /\ l_now (c_lim s') == l_now (c_lim s) + elapsed [e].
Proof.
  intros (Hnow & Hten & Hglob) Hstep.
  destruct s as [[now ts g] calls]. unfold Inv, tenant_inv, global_inv in *. proj_red.
  destruct e as [dt | c t qps | c | c]; cbn [cstep elapsed] in *; proj_red.
  - destruct (Qle_bool 0 dt) eqn:Edt; [|discriminate]. inv_some. apply Qle_bool_iff in Edt. proj_red.
    split; [|lra]. split; [lra|]. split; [intros t|]; apply (held_later now); try lra; [apply Hten|exact Hglob].
  - (* TTry: c is new, so every count grows by the new status *)
    destruct (call_get calls c) eqn:Ecall; [discriminate|].
    set (b0 := match t_get ts t with Some b => b | None => bucket_new qps now end) in *.
    assert (Hb0 : binv b0 now (count_calls (holds_t t) calls)).
    { specialize (Hten t). unfold b0. destruct (t_get ts t); [exact Hten|]. cbn [held] in Hten. rewrite Hten. exact (binv_new qps now Hnow). }
    destruct (try_consume b0 now) as [b1 ok] eqn:Etry. inv_some. proj_red.
    set (st := if ok then match g with None => CDone t true | Some _ => CTenantOk t end else CDone t false).
    split; [|lra]. split; [exact Hnow|]. split.
    + intros t'. rewrite t_get_set, (count_set_fresh _ _ _ _ Ecall).
      replace (holds_t t' st) with (ok && N.eqb t t') by (unfold st; destruct ok; [destruct g|]; reflexivity).
      destruct (N.eqb t t') eqn:Ett.
      * apply N.eqb_eq in Ett. subst t'. rewrite andb_true_r. exact (binv_try_consume _ _ _ _ _ Hb0 Etry).
      * rewrite andb_false_r, Nat.add_0_r. apply Hten.
    + destruct g as [g|]; [|exact I]. rewrite (count_set_fresh _ _ _ _ Ecall).
      replace (is_admitted_any st) with false by (destruct ok; reflexivity). rewrite Nat.add_0_r. exact Hglob.
  - (* GTry: CTenantOk t becomes CDone t true or CNeedRefund t, which hold the same tenant tokens *)
    destruct (call_get calls c) as [[t| |]|] eqn:Ecall; try discriminate.
    destruct g as [g|]; [|discriminate].
    destruct (try_consume g now) as [g1 gok] eqn:Etry. inv_some. proj_red.
    split; [|lra]. split; [exact Hnow|]. split.
    + intros t'. rewrite (count_set_same _ _ _ _ _ Ecall); [apply Hten|]. destruct gok; reflexivity.
    + pose proof (count_set_existing is_admitted_any _ _ _ (if gok then CDone t true else CNeedRefund t) Ecall) as Hc.
      replace (is_admitted_any (if gok then CDone t true else CNeedRefund t)) with gok in Hc by (destruct gok; reflexivity).
      cbn [is_admitted_any b2n] in Hc. rewrite Nat.add_0_r in Hc. cbn [held]. rewrite Hc.
      exact (binv_try_consume _ _ _ _ _ Hglob Etry).
  - (* Refund: CNeedRefund t becomes CDone t false, which gives the tenant's token back *)
    destruct (call_get calls c) as [[|t|]|] eqn:Ecall; try discriminate.
    destruct (t_get ts t) as [b|] eqn:Eg; [|discriminate]. inv_some. proj_red.
    split; [|lra]. split; [exact Hnow|]. split.
    + intros t'. rewrite t_get_set. destruct (N.eqb t t') eqn:Ett.
      * apply N.eqb_eq in Ett. subst t'. specialize (Hten t). rewrite Eg in Hten. apply binv_refund.
        pose proof (count_set_existing (holds_t t) _ _ _ (CDone t false) Ecall) as Hc.
        cbn [holds_t andb b2n] in Hc. rewrite N.eqb_refl in Hc. cbn [b2n] in Hc.
        rewrite Nat.add_0_r in Hc. rewrite Hc. exact Hten.
      * rewrite (count_set_same _ _ _ _ _ Ecall); [apply Hten|]. cbn [holds_t andb]. rewrite Ett. reflexivity.
    + destruct g as [g|]; [|exact I]. rewrite (count_set_same _ _ _ _ _ Ecall); [exact Hglob|reflexivity].
Qed.

Lemma crun_inv evs : forall s s', Inv s -> crun s evs = Some s' ->
  Inv s' /\ l_now (c_lim s') == l_now (c_lim s) + elapsed evs.
Proof.
  induction evs as [|e r IH]; cbn [crun]; intros s s' Hinv H.
  - inv_some. split; [exact Hinv|]. cbn [elapsed]. lra.
  - destruct (cstep s e) as [s1|] eqn:E; [|discriminate].
    destruct (inv_step _ _ _ Hinv E) as [Hinv1 Hn]. destruct (IH s1 s' Hinv1 H) as [A B]. split; [exact A|].
    destruct e; cbn [elapsed] in *; lra.
Qed.

Lemma crun_init g evs s : crun (cinit g) evs = Some s -> Inv s /\ l_now (c_lim s) == elapsed evs.
Proof.
  intros H. destruct (crun_inv evs _ _ (inv_init g) H) as [A B]. split; [exact A|].
  rewrite B. apply Qplus_0_l.
Qed.

Lemma tenant_bound_from_inv s t b :
  Inv s -> t_get (l_tenants (c_lim s)) t = Some b ->
  qn (admitted_t (c_calls s) t) <= b_cap b + b_rate b * l_now (c_lim s).
Proof.
  intros (_ & Hten & _) Hb. specialize (Hten t). unfold tenant_inv in Hten. rewrite Hb in Hten.
  pose proof (binv_bound _ _ _ Hten).
  pose proof (qn_le _ _ (holds_admitted_le t (c_calls s))). unfold admitted_t. lra.
Qed.

Lemma tenant_none_from_inv s t :
  Inv s -> t_get (l_tenants (c_lim s)) t = None -> admitted_t (c_calls s) t = 0%nat.
Proof.
  intros (_ & Hten & _) Hn. specialize (Hten t). unfold tenant_inv in Hten. rewrite Hn in Hten.
  cbn [held] in Hten. pose proof (holds_admitted_le t (c_calls s)). unfold admitted_t. lia.
Qed.

Lemma global_bound_from_inv s g :
  Inv s -> l_global (c_lim s) = Some g ->
  qn (admitted_all (c_calls s)) <= b_cap g + b_rate g * l_now (c_lim s).
Proof.
  intros (_ & _ & Hglob) Hg. unfold global_inv in Hglob. rewrite Hg in Hglob. exact (binv_bound _ _ _ Hglob).
Qed.

(* capacity and rate of a bucket never change: they are max_qps of the call that created it *)
Definition caps_fixed (s : cstate) : Prop :=
  (forall t b, t_get (l_tenants (c_lim s)) t = Some b -> exists q, b_cap b = inject_Z (Z.of_N q) /\ b_rate b = b_cap b).

Lemma caps_step s e s' : caps_fixed s -> cstep s e = Some s' -> caps_fixed s'.
Proof.
  unfold caps_fixed. intros Hc Hstep.
  destruct s as [[now ts g] calls]. proj_red.
  destruct e as [dt|c t qps|c|c]; cbn [cstep c_lim c_calls l_now l_tenants l_global] in Hstep.
  - destruct (Qle_bool 0 dt); [|discriminate]. inv_some. exact Hc.
  - destruct (call_get calls c); [discriminate|].
    destruct (try_consume _ now) as [b1 ok] eqn:Etry. inv_some.
    cbn [c_lim l_tenants]. intros t' b H. rewrite t_get_set in H.
    destruct (N.eqb t t') eqn:Ett; rewrite ?Ett in H; [|eapply Hc; eauto]. inv_some.
    destruct (try_consume_cap _ _ _ _ Etry) as [A B]. rewrite A, B.
    destruct (t_get ts t) as [b0|] eqn:Eg.
    + apply (Hc t b0 Eg).
    + exists qps. split; reflexivity.
  - destruct (call_get calls c) as [[| |]|]; try discriminate.
    destruct g; [|discriminate]. destruct (try_consume b now). inv_some. exact Hc.
  - destruct (call_get calls c) as [[| |]|]; try discriminate.
    destruct (t_get ts t) as [b|] eqn:Eg; [|discriminate]. inv_some.
    cbn [c_lim l_tenants]. intros t' b' H. rewrite t_get_set in H.
    destruct (N.eqb t t') eqn:Ett; rewrite ?Ett in H; [|eapply Hc; eauto]. inv_some. proj_red. apply (Hc t b Eg).
Qed.

Theorem refund_neutral : forall l t qps b g l',
  t_get (l_tenants l) t = Some b -> l_global l = Some g ->
  bucket_ok b (l_now l) ->
  Qle_bool 1 (b_tokens (refill b (l_now l))) = true ->
  Qle_bool 1 (b_tokens (refill g (l_now l))) = false ->
  check_limit l t qps = (l', false) ->
  exists b', t_get (l_tenants l') t = Some b' /\
             b_tokens b' == b_tokens (refill b (l_now l)) /\ b_cap b' = b_cap b.
Proof.
  intros l t qps b g l' Hb Hg Hok Ht Hgl. unfold check_limit. rewrite Hb, Hg.
  unfold try_consume. rewrite Ht, Hgl. cbn [negb]. intro H. inversion H; subst; clear H.
  cbn [l_tenants]. rewrite t_get_set, N.eqb_refl. eexists. split; [reflexivity|].
  pose proof (refill_ok b (l_now l) Hok) as (_ & B & _).
  unfold refund_one. proj_red. split; [|apply refill_cap].
  rewrite Q.min_l by lra. lra.
Qed.

Theorem fresh_tenant_full : forall l t qps,
  t_get (l_tenants l) t = None -> (1 <= qps)%N ->
  (forall g, l_global l = Some g -> Qle_bool 1 (b_tokens (refill g (l_now l))) = true) ->
  snd (check_limit l t qps) = true.
Proof.
  intros l t qps Hn Hq Hg. unfold check_limit. rewrite Hn. unfold try_consume, refill, bucket_new.
  cbn [b_last b_tokens b_cap b_rate].
  destruct (Qlt_le_dec 0 (l_now l - l_now l)) as [Hlt|Hle]; [exfalso; lra|].
  cbn [b_tokens].
  assert (Qle_bool 1 (inject_Z (Z.of_N qps)) = true).
  { apply Qle_bool_iff. change 1 with (inject_Z 1). rewrite <- Zle_Qle. lia. }
  rewrite H. cbn [negb]. destruct (l_global l) as [g|]; [|reflexivity].
  unfold refill in Hg. specialize (Hg g eq_refl).
  destruct (Qlt_le_dec 0 (l_now l - b_last g)); cbn [b_tokens] in *; rewrite Hg; reflexivity.
Qed.
