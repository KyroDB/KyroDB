(* Proofs about Model/Quota.v.  Sequential: count = |live| after every history.  Interleaving model: any number
   of concurrent Insert / BulkInsert / BulkLoadHnsw / Delete / BatchDelete calls keep
   count = |live| + reservations in flight  in every schedule, for one tenant and for many; witness schedules on
   which the protocol before /repo 3784711 (Delete / BatchDelete without the quota mutex) drifted. *)
From Coq Require Import List NArith Bool Lia PeanoNat.
From Kyro Require Model.Server Proofs.ServerProofs.
From Kyro Require Import Model.Quota Proofs.ListFacts.
Import ListNotations.
Open Scope N_scope.

Section GenericLists.
Lemma filter_len_split : forall A (f : A -> bool) l,
  (length (List.filter f l) + length (List.filter (fun y => negb (f y)) l) = length l)%nat.
Proof.
  intros A f l. induction l as [|a l IH]; [reflexivity|]. cbn [List.filter].
  destruct (f a); cbn [negb length]; lia.
Qed.
Lemma nodup_same_length : forall A (a b : list A), NoDup a -> NoDup b -> (forall x, In x a <-> In x b) -> length a = length b.
Proof.
  intros A a b Ha Hb H. apply Nat.le_antisymm; apply NoDup_incl_length; try assumption; intros x Hx; apply H; exact Hx.
Qed.
End GenericLists.

Lemma mem_In : forall x l, mem x l = true <-> In x l.
Proof. exact existsb_eqb_In. Qed.
Lemma mem_nIn : forall x l, mem x l = false <-> ~ In x l.
Proof. intros x l. rewrite <- mem_In. destruct (mem x l); split; congruence. Qed.
Lemma len_nil : forall A, @len A [] = 0. Proof. reflexivity. Qed.
Lemma len_app : forall A (a b : list A), len (a ++ b) = len a + len b.
Proof. intros. unfold len. rewrite app_length. lia. Qed.
Lemma len_cons : forall A (x : A) l, len (x :: l) = len l + 1.
Proof. intros. unfold len. cbn [length]. lia. Qed.

Lemma In_add : forall l x y, In y (add l x) <-> In y l \/ y = x.
Proof.
  intros l x y. unfold add. destruct (mem x l) eqn:E.
  - apply mem_In in E. split; [auto|]. intros [H|H]; [exact H|subst; exact E].
  - rewrite in_app_iff. cbn [In]. split.
    + intros [H|[H|[]]]; [left; exact H|right; symmetry; exact H].
    + intros [H|H]; [left; exact H|right; left; symmetry; exact H].
Qed.
Lemma NoDup_add : forall l x, NoDup l -> NoDup (add l x).
Proof.
  intros l x H. unfold add. destruct (mem x l) eqn:E; [exact H|].
  apply NoDup_snoc; [exact H|]. apply mem_nIn. exact E.
Qed.
Lemma len_add : forall l x, len (add l x) = if mem x l then len l else len l + 1.
Proof. intros l x. unfold add. destruct (mem x l); [reflexivity|]. rewrite len_app. reflexivity. Qed.
Lemma mem_add_same : forall l x, mem x (add l x) = true.
Proof. intros. apply mem_In. apply In_add. right. reflexivity. Qed.

Lemma In_remove : forall l x y, In y (remove l x) <-> In y l /\ y <> x.
Proof.
  intros l x y. unfold remove. rewrite filter_In. split; intros [H1 H2]; split; auto.
  - intro E. subst. rewrite N.eqb_refl in H2. discriminate.
  - apply negb_true_iff. apply N.eqb_neq. intro E. apply H2. symmetry. exact E.
Qed.
Lemma In_dedup : forall l x, In x (dedup l) <-> In x l.
Proof.
  induction l as [|a l IH]; intros x; [reflexivity|]. cbn [dedup]. destruct (mem a l) eqn:E.
  - rewrite IH. split; [intros H; right; exact H|]. intros [H|H]; [subst; apply mem_In; exact E|exact H].
  - cbn [In]. rewrite IH. reflexivity.
Qed.
Lemma NoDup_dedup : forall l, NoDup (dedup l).
Proof.
  induction l as [|a l IH]; [constructor|]. cbn [dedup]. destruct (mem a l) eqn:E; [exact IH|].
  constructor; [|exact IH]. rewrite In_dedup. apply mem_nIn. exact E.
Qed.
Lemma In_keep_in : forall l xs x, In x (keep_in l xs) <-> In x xs /\ In x l.
Proof. intros. unfold keep_in. rewrite filter_In, mem_In. reflexivity. Qed.
Lemma In_remove_all : forall l xs x, In x (remove_all l xs) <-> In x l /\ ~ In x xs.
Proof. intros. unfold remove_all. rewrite filter_In, negb_true_iff, mem_nIn. reflexivity. Qed.
Lemma len_remove_all : forall l u, NoDup l -> NoDup u -> len (remove_all l u) + len (keep_in l u) = len l.
Proof.
  intros l u Hl Hu. unfold len, remove_all.
  pose proof (filter_len_split _ (fun y => mem y u) l) as Hs. cbv beta in Hs.
  assert (E : length (List.filter (fun y => mem y u) l) = length (keep_in l u)).
  { apply nodup_same_length.
    - apply NoDup_filter. exact Hl.
    - apply NoDup_filter. exact Hu.
    - intros x. rewrite In_keep_in, filter_In, mem_In. tauto. }
  lia.
Qed.
Lemma len_remove : forall l x, NoDup l -> mem x l = true -> len (remove l x) + 1 = len l.
Proof.
  intros l x Hn Hm. rewrite <- (len_remove_all l [x] Hn) by (repeat constructor; intros []).
  unfold keep_in. cbn [List.filter]. rewrite Hm. f_equal. unfold remove, remove_all. f_equal. apply filter_ext.
  intros y. cbn. rewrite orb_false_r, N.eqb_sym. reflexivity.
Qed.
Lemma len_keep_in_le : forall l u, len (keep_in l u) <= len u.
Proof. intros. unfold len, keep_in. pose proof (filter_length_le (fun y => mem y l) u). lia. Qed.
Lemma len_keep_in_le_l : forall l u, NoDup u -> NoDup l -> len (keep_in l u) <= len l.
Proof.
  intros l u Hu Hl. rewrite <- (len_remove_all l u Hl Hu), N.add_comm. apply N.le_add_r.
Qed.

(* the reserved ids that exist are the old ones and id *)
Lemma keep_in_add_new : forall new live id, NoDup new -> In id new -> mem id live = false ->
  len (keep_in (add live id) new) = len (keep_in live new) + 1.
Proof.
  intros new live id Hn Hin Hm. rewrite <- (len_cons _ id). unfold len. f_equal. apply nodup_same_length.
  - apply NoDup_filter. exact Hn.
  - constructor; [|apply NoDup_filter; exact Hn]. rewrite In_keep_in. intros [_ H]. apply mem_In in H. congruence.
  - intro x. cbn [In]. rewrite !In_keep_in, In_add. split.
    + intros [H1 [H2|H2]]; auto.
    + intros [<-|[H1 H2]]; auto.
Qed.

(* What a bulk load reserves for: the ids of the batch that are not live, once each.  `todo_ok`: whatever is still to
   be loaded is live or reserved for. *)
Definition todo_ok (live new ids : list N) : Prop := forall id, In id ids -> In id live \/ In id new.
Lemma new_ids_spec : forall live ids, let new := dedup (List.filter (fun x => negb (mem x live)) ids) in
  NoDup new /\ keep_in live new = [] /\ todo_ok live new ids.
Proof.
  intros live ids new. split; [apply NoDup_dedup|]. split.
  - apply filter_none. intros y Hy. unfold new in Hy. rewrite In_dedup, filter_In in Hy. apply negb_true_iff, Hy.
  - intros x Hx. destruct (mem x live) eqn:Em; [left; apply mem_In; exact Em|right].
    unfold new. rewrite In_dedup, filter_In, Em. auto.
Qed.
Lemma todo_ok_tail : forall live live' new id ids,
  todo_ok live new (id :: ids) -> (forall x, In x live -> In x live') -> todo_ok live' new ids.
Proof. intros live live' new id ids H Hsub x Hx. destruct (H x (or_intror Hx)); auto. Qed.
(* a cold insert of such an id either overwrites or makes one more reserved id exist *)
Lemma add_reserved : forall new live id, NoDup new -> In id live \/ In id new ->
  len (keep_in live new) <= len (keep_in (add live id) new)
  /\ len (add live id) + len (keep_in live new) = len live + len (keep_in (add live id) new).
Proof.
  intros new live id Hn H. destruct (mem id live) eqn:Em.
  - unfold add. rewrite Em. lia.
  - destruct H as [H|H]; [apply mem_In in H; congruence|].
    rewrite len_add, Em, (keep_in_add_new new live id Hn H Em). lia.
Qed.
Lemma reserve_guard : forall r lim c, negb (r =? 0) && (lim <? c + r) = false -> r = 0 \/ c + r <= lim.
Proof.
  intros r lim c G. apply andb_false_iff in G.
  destruct G as [G|G]; [left; apply negb_false_iff, N.eqb_eq in G|right; apply N.ltb_ge in G]; exact G.
Qed.

Definition tgood (lim : N) (ts : tstate) : Prop :=
  t_count ts = len (t_live ts) /\ NoDup (t_live ts) /\ t_count ts <= lim.
Definition good (cfg : qcfg) (s : qstate) : Prop := forall t, tgood (q_limit cfg t) (tget s t).

Lemma tgood_mk : forall lim c live tags u, c = len live -> NoDup live -> c <= lim -> tgood lim (mkT c live tags u).
Proof. intros. repeat split; assumption. Qed.
Lemma tgood_t0 : forall lim, tgood lim t0.
Proof. intros. apply tgood_mk; [reflexivity|constructor|cbn; lia]. Qed.

Lemma enforce_none : forall cfg t ts id,
  enforce cfg t ts id = None <-> (mem id (t_live ts) = false /\ q_limit cfg t <= t_count ts).
Proof.
  intros. unfold enforce. destruct (mem id (t_live ts)); [split; [discriminate|intros [H _]; discriminate]|].
  destruct (q_limit cfg t <=? t_count ts) eqn:E.
  - apply N.leb_le in E. split; auto.
  - apply N.leb_gt in E. split; [discriminate|]. intros [_ H]. lia.
Qed.

Lemma insert_core_good : forall cfg t ts it,
  tgood (q_limit cfg t) ts -> tgood (q_limit cfg t) (fst (insert_core cfg t ts it)).
Proof.
  intros cfg t ts it [Hc [Hn Hl]]. unfold insert_core, enforce.
  destruct (mem (qi_id it) (t_live ts)) eqn:Em.
  - destruct (engine_ok cfg (qi_kind it)); cbn.
    + apply tgood_mk; [rewrite len_add, Em; exact Hc|apply NoDup_add; exact Hn|exact Hl].
    + repeat split; assumption.
  - destruct (q_limit cfg t <=? t_count ts) eqn:El; [cbn; repeat split; assumption|].
    apply N.leb_gt in El. destruct (engine_ok cfg (qi_kind it)); cbn.
    + apply tgood_mk; [rewrite len_add, Em; lia|apply NoDup_add; exact Hn|lia].
    + unfold dec_count, set_count. cbn. apply tgood_mk; [lia|exact Hn|lia].
Qed.

Lemma bulk_item_good : forall cfg t acc it,
  tgood (q_limit cfg t) (fst acc) -> tgood (q_limit cfg t) (fst (bulk_item cfg t acc it)).
Proof.
  intros cfg t [ts [ins failed]] it H. cbn [fst] in H. unfold bulk_item.
  destruct (qi_id it <? 1); [exact H|]. destruct (is_empty (qi_kind it)); [exact H|].
  destruct (U32_MAX <? qi_id it); [exact H|].
  pose proof (insert_core_good cfg t ts it H) as G.
  destruct (insert_core cfg t ts it) as [ts' r]. cbn [fst] in G. destruct r; exact G.
Qed.
Lemma bulk_fold_good : forall cfg t its acc,
  tgood (q_limit cfg t) (fst acc) -> tgood (q_limit cfg t) (fst (fold_left (bulk_item cfg t) its acc)).
Proof. intros cfg t its. apply (fold_left_inv _ (fun acc => tgood (q_limit cfg t) (fst acc))). apply bulk_item_good. Qed.

Lemma load_item_eq : forall cfg live tags loaded failed it, load_item cfg (live, tags, (loaded, failed)) it =
  if engine_ok cfg (qi_kind it) then (add live (qi_id it), Server.nset tags (qi_id it) (qi_tag it), (loaded + 1, failed))
  else (live, tags, (loaded, failed + 1)).
Proof. reflexivity. Qed.
(* |live'| - |reserved ids in live'| does not change while a batch is loaded *)
Lemma load_fold_inv : forall cfg new batch live tags cnt,
  NoDup new -> NoDup live -> todo_ok live new (map qi_id batch) ->
  let live' := fst (fst (fold_left (load_item cfg) batch (live, tags, cnt))) in
  NoDup live' /\ len (keep_in live new) <= len (keep_in live' new)
  /\ len live' + len (keep_in live new) = len live + len (keep_in live' new).
Proof.
  intros cfg new batch. induction batch as [|it batch IH]; intros live tags [loaded failed] Hnew Hn Ht; cbn zeta.
  - cbn [fold_left fst]. split; [exact Hn|]. split; lia.
  - cbn [fold_left]. rewrite load_item_eq. destruct (engine_ok cfg (qi_kind it)).
    + destruct (add_reserved new live (qi_id it) Hnew (Ht _ (or_introl eq_refl))) as [K1 K2].
      destruct (IH (add live (qi_id it)) (Server.nset tags (qi_id it) (qi_tag it)) (loaded + 1, failed) Hnew (NoDup_add _ _ Hn))
        as (A & B & C).
      { apply (todo_ok_tail live _ new (qi_id it)); [exact Ht|]. intros x Hx. apply In_add. left. exact Hx. }
      split; [exact A|]. split; lia.
    + apply IH; [exact Hnew|exact Hn|]. apply (todo_ok_tail live _ new (qi_id it)); [exact Ht|auto].
Qed.

Lemma bulk_load_good : forall cfg t ts its,
  tgood (q_limit cfg t) ts -> tgood (q_limit cfg t) (fst (h_bulk_load cfg t ts its)).
Proof.
  intros cfg t ts its [Hc [Hn Hl]]. unfold h_bulk_load.
  set (batch := List.filter bl_valid its).
  destruct batch as [|b0 brest] eqn:Eb; [cbn; repeat split; assumption|]. rewrite <- Eb. clear Eb b0 brest.
  destruct (new_ids_spec (t_live ts) (map qi_id batch)) as (Nn & Nk & Nt).
  set (new := dedup (List.filter (fun x => negb (mem x (t_live ts))) (map qi_id batch))) in *.
  destruct (negb (len new =? 0) && (q_limit cfg t <? t_count ts + len new)) eqn:Eg; [cbn; repeat split; assumption|].
  apply reserve_guard in Eg.
  pose proof (load_fold_inv cfg new batch (t_live ts) (t_tags ts) (0, 0) Nn Hn Nt) as S. cbn zeta in S.
  destruct (fold_left (load_item cfg) batch (t_live ts, t_tags ts, (0, 0))) as [[live' tags'] [loaded failed]].
  cbn [fst] in *. destruct S as (A & _ & L). rewrite Nk, len_nil in L.
  pose proof (len_keep_in_le live' new) as K.
  apply tgood_mk; [lia|exact A|lia].
Qed.

Lemma delete_core_good : forall lim ts id, tgood lim ts -> tgood lim (fst (delete_core ts id)).
Proof.
  intros lim ts id [Hc [Hn Hl]]. unfold delete_core. destruct (mem id (t_live ts)) eqn:E; [|repeat split; assumption].
  cbn [fst]. pose proof (len_remove _ _ Hn E).
  apply tgood_mk; [lia|apply NoDup_filter; exact Hn|lia].
Qed.
Lemma batch_delete_core_good : forall lim ts gs, tgood lim ts -> tgood lim (fst (batch_delete_core ts gs)).
Proof.
  intros lim ts gs [Hc [Hn Hl]]. unfold batch_delete_core.
  destruct (len (keep_in (t_live ts) (dedup gs)) =? 0); [repeat split; assumption|].
  cbn [fst]. pose proof (len_remove_all (t_live ts) (dedup gs) Hn (NoDup_dedup gs)).
  apply tgood_mk; [lia|apply NoDup_filter; exact Hn|lia].
Qed.
Lemma probe_good : forall cfg t ts id,
  tgood (q_limit cfg t) ts -> tgood (q_limit cfg t) (fst (h_probe cfg t ts id)).
Proof.
  intros cfg t ts id H. unfold h_probe.
  pose proof (insert_core_good cfg t ts (mkQItem id VGood 0) H) as G.
  destruct (insert_core cfg t ts (mkQItem id VGood 0)) as [ts1 r]. cbn [fst] in G.
  destruct r; cbn [fst]; [exact H|apply delete_core_good; exact G|apply delete_core_good; exact G].
Qed.

Lemma handle_good : forall cfg t ts op,
  tgood (q_limit cfg t) ts -> tgood (q_limit cfg t) (fst (handle cfg t ts op)).
Proof.
  intros cfg t ts op H. destruct op as [it|its|its|id|ids|f| |id]; cbn [handle].
  - unfold h_insert. destruct (qi_id it <? 1); [exact H|].
    destruct (is_empty (qi_kind it) || is_nonfinite (qi_kind it)); [exact H|].
    destruct (U32_MAX <? qi_id it); [exact H|].
    pose proof (insert_core_good cfg t ts it H) as G.
    destruct (insert_core cfg t ts it) as [ts' r]. destruct r; exact G.
  - unfold h_bulk_insert.
    pose proof (bulk_fold_good cfg t its (ts, (0, 0)) H) as G.
    destruct (fold_left (bulk_item cfg t) its (ts, (0, 0))) as [ts' [ins failed]]. exact G.
  - apply bulk_load_good. exact H.
  - unfold h_delete. destruct (id <? 1); [exact H|]. destruct (U32_MAX <? id); [exact H|].
    pose proof (delete_core_good _ ts id H) as G. destruct (delete_core ts id) as [ts' e]. exact G.
  - unfold h_batch_delete_ids. destruct (existsb (fun i => U32_MAX <? i) ids); [exact H|].
    apply batch_delete_core_good. exact H.
  - unfold h_batch_delete_filter. apply batch_delete_core_good. exact H.
  - exact H.
  - apply probe_good. exact H.
Qed.

Lemma tget_tset_same : forall s t x, tget (tset s t x) t = x.
Proof. intros. unfold tget, tset. rewrite ServerProofs.nget_nset_same. reflexivity. Qed.
Lemma tget_tset_other : forall s t x u, u <> t -> tget (tset s t x) u = tget s u.
Proof. intros. unfold tget, tset. rewrite ServerProofs.nget_nset_other by assumption. reflexivity. Qed.
Lemma tget_recount : forall s t, tget (recount s) t = set_count (tget s t) (len (t_live (tget s t))).
Proof.
  intros s t. unfold tget, recount. induction s as [|[k v] s IH]; cbn; [reflexivity|].
  destruct (t =? k); [reflexivity|exact IH].
Qed.

Lemma qstep_good : forall cfg s e, good cfg s -> good cfg (fst (qstep cfg s e)).
Proof.
  intros cfg s e G. destruct e as [t op|]; cbn [qstep].
  - pose proof (handle_good cfg t (tget s t) op (G t)) as H.
    destruct (handle cfg t (tget s t) op) as [ts' r]. cbn [fst] in *. intros u.
    destruct (N.eq_dec u t) as [E|E]; [subst; rewrite tget_tset_same; exact H|].
    rewrite tget_tset_other by exact E. apply G.
  - cbn [fst]. intros u. rewrite tget_recount. destruct (G u) as [Hc [Hn Hl]].
    apply tgood_mk; [reflexivity|exact Hn|lia].
Qed.
Lemma qfinal_good : forall cfg es, good cfg (qfinal cfg es).
Proof. intros cfg es. unfold qfinal. apply (fold_left_inv _ (good cfg)); [apply qstep_good | intro t; apply tgood_t0]. Qed.

Lemma qrun_from_fst : forall cfg es s, fst (qrun_from cfg s es) = fold_left (fun s e => fst (qstep cfg s e)) es s.
Proof.
  intros cfg es. induction es as [|e es IH]; intros s; [reflexivity|]. cbn [qrun_from fold_left].
  destruct (qstep cfg s e) as [s1 o] eqn:E1. specialize (IH s1).
  destruct (qrun_from cfg s1 es) as [s2 os]. cbn [fst] in *. exact IH.
Qed.

Definition item_admissible (it : qitem) : bool :=
  negb (qi_id it <? 1) && negb (is_empty (qi_kind it) || is_nonfinite (qi_kind it)) && negb (U32_MAX <? qi_id it).

Lemma insert_refused_iff : forall cfg t ts it,
  tgood (q_limit cfg t) ts -> item_admissible it = true ->
  (snd (h_insert cfg t ts it) = QErrExhausted
   <-> (mem (qi_id it) (t_live ts) = false /\ len (t_live ts) = q_limit cfg t)).
Proof.
  intros cfg t ts it [Hc [Hn Hl]] Ha. unfold item_admissible in Ha.
  apply andb_true_iff in Ha. destruct Ha as [Ha H3]. apply andb_true_iff in Ha. destruct Ha as [H1 H2].
  apply negb_true_iff in H1, H2, H3. unfold h_insert. rewrite H1, H2, H3.
  unfold insert_core. pose proof (enforce_none cfg t ts (qi_id it)) as EN.
  destruct (enforce cfg t ts (qi_id it)) as [[already ts1]|] eqn:E.
  - assert (NE : ~ (mem (qi_id it) (t_live ts) = false /\ q_limit cfg t <= t_count ts)).
    { intro X. apply EN in X. discriminate. }
    split.
    + destruct (engine_ok cfg (qi_kind it)); cbn; discriminate.
    + intros [A B]. exfalso. apply NE. split; [exact A|lia].
  - destruct EN as [EN _]. specialize (EN eq_refl). destruct EN as [A B]. cbn. split; [|reflexivity].
    intros _. split; [exact A|lia].
Qed.

Definition in_cs (th : ithr) : bool := match i_pc th with ILock | IDone => false | _ => true end.
(* reservations a thread holds that are not (yet) matched by a live document *)
Definition debt (th : ithr) : N :=
  if i_ex th then 0
  else match i_pc th with
       | ICold => 1
       | IRelease => if i_failed th then 1 else 0
       | _ => 0
       end.
(* what the call has read under the mutex and acts on later *)
Definition know (live : list N) (th : ithr) : Prop :=
  match i_pc th with
  | ILock | IExists => i_failed th = false
  | IReserve | ICold => i_failed th = false /\ i_ex th = mem (i_id th) live
  | IToken => i_failed th = false /\ mem (i_id th) live = true
  | _ => True
  end.

Definition gin_cs (th : thr) : bool :=
  match th with
  | TI x | TBI x _ => in_cs x
  | TL x => match l_pc x with LLock | LDone => false | _ => true end
  | TD x => match d_pc x with DLock | DDone => false | _ => true end
  | TB x => match b_pc x with BLock | BDone => false | _ => true end
  end.
(* how far the counter is ahead of the live set because of this thread's unfinished critical section *)
Definition gdebt (live : list N) (th : thr) : N :=
  match th with
  | TI x | TBI x _ => debt x
  | TL x => match l_pc x with
            | LLoad | LRecount => l_reserved x - len (keep_in live (l_new x))
            | LRelease => l_reserved x - l_now x
            | _ => 0
            end
  | TD x => match d_pc x with DDecr => 1 | _ => 0 end
  | TB x => match b_pc x with BDecr => b_n x | _ => 0 end
  end.
Definition gknow (live : list N) (th : thr) : Prop :=
  match th with
  | TI x | TBI x _ => know live x
  | TL x => match l_pc x with
            | LLock | LNew => l_todo x = l_items x
            | LReserve => NoDup (l_new x) /\ keep_in live (l_new x) = [] /\ todo_ok live (l_new x) (map fst (l_todo x))
            | LLoad => l_reserved x = len (l_new x) /\ NoDup (l_new x) /\ todo_ok live (l_new x) (map fst (l_todo x))
            | LRecount => l_reserved x = len (l_new x)
            | LRelease => l_reserved x = len (l_new x) /\ l_now x = len (keep_in live (l_new x))
            | _ => True
            end
  | TD x => d_mutex x = true
  | TB x => b_mutex x = true
            /\ match b_pc x with
               | BEngine => NoDup (b_ids x) /\ b_n x = len (keep_in live (b_ids x))
               | _ => True
               end
  end.

Lemma gdebt_outside : forall live th, gin_cs th = false -> gdebt live th = 0.
Proof.
  intros live th H. destruct th as [x|x r|x|x|x]; cbn in *.
  1, 2: unfold in_cs in H; unfold debt; destruct (i_ex x); [reflexivity|]; destruct (i_pc x); try discriminate; reflexivity.
  - destruct (l_pc x); try discriminate; reflexivity.
  - destruct (d_pc x); try discriminate; reflexivity.
  - destruct (b_pc x); try discriminate; reflexivity.
Qed.
Lemma gknow_outside : forall live live' th, gin_cs th = false -> gknow live th -> gknow live' th.
Proof.
  intros live live' th H K. destruct th as [x|x r|x|x|x]; cbn in *.
  1, 2: unfold in_cs in H; unfold know in *; destruct (i_pc x); try discriminate; exact K.
  - destruct (l_pc x); try discriminate; exact K.
  - exact K.
  - destruct (b_pc x); try discriminate; exact K.
Qed.

(* how one step of a call moves the mutex; outside its critical section it leaves the live set alone *)
Definition local_post (me : nat) (sh : shared) (cs : bool) (sh' : shared) (cs' : bool) : Prop :=
  (cs = false -> sh_live sh' = sh_live sh)
  /\ match cs, cs' with
     | false, false => sh_mutex sh' = sh_mutex sh
     | false, true => sh_mutex sh = None /\ sh_mutex sh' = Some me
     | true, true => sh_mutex sh' = sh_mutex sh
     | true, false => sh_mutex sh' = None
     end.

Definition tinv (rest : N) (sh : shared) (th : thr) : Prop :=
  NoDup (sh_live sh) /\ sh_count sh = len (sh_live sh) + gdebt (sh_live sh) th + rest /\ gknow (sh_live sh) th.

Ltac scbn :=
  cbn [gdebt gknow gin_cs] in *; unfold debt, know, in_cs in *;
  cbn [sh_live sh_count sh_mutex i_pc i_id i_ok i_ex i_failed i_refused ipc_set d_pc d_id d_existed d_mutex
       b_pc b_ids b_n b_mutex l_pc l_items l_todo l_new l_reserved l_now l_refused] in *.
(* St : a step function = Some (sh', x') with its result written out.  Puts the result in place and disposes of the
   conjuncts that hold by assumption, by computation, by the false premise true = false, or by arithmetic. *)
Ltac stepped St sh' x' :=
  injection St as <- <-; scbn;
  repeat split; try assumption; try reflexivity; try (intro; discriminate); try lia.

(* `rest` is what the other calls contribute.  The only increments of the counter, IReserve and LReserve, are
   guarded by the limit. *)
Lemma istep_local : forall limit me sh a sh' a' rest,
  tinv rest sh (TI a) -> istep limit me sh a = Some (sh', a') ->
  tinv rest sh' (TI a') /\ local_post me sh (in_cs a) sh' (in_cs a') /\ (sh_count sh <= limit -> sh_count sh' <= limit).
Proof.
  intros limit me sh a sh' a' rest (Hn & Hc & Ka) St. unfold tinv, local_post, istep in *.
  destruct a as [pc id ok ex failed refused]. destruct pc; scbn.
  - destruct (sh_mutex sh) eqn:Em; [discriminate|]. stepped St sh' a'.
  - stepped St sh' a'. destruct ex, (mem id (sh_live sh)); lia.
  - destruct Ka as [Kf Ke]. destruct ex; [stepped St sh' a'|].
    destruct (limit <=? sh_count sh) eqn:El; [|apply N.leb_gt in El]; stepped St sh' a'.
  - destruct Ka as [Kf Ke]. destruct ok; stepped St sh' a'; try (destruct ex; lia).
    + apply NoDup_add. exact Hn.
    + rewrite len_add, <- Ke. destruct ex; lia.
    + apply mem_add_same.
  - destruct Ka as [Kf Km]. subst failed. rewrite Km in St. stepped St sh' a'.
  - destruct failed, ex; cbn [andb negb] in St; stepped St sh' a'.
  - stepped St sh' a'.
  - discriminate.
Qed.

Lemma dstep_local : forall me sh x sh' x' rest,
  tinv rest sh (TD x) -> dstep me sh x = Some (sh', x') ->
  tinv rest sh' (TD x') /\ local_post me sh (gin_cs (TD x)) sh' (gin_cs (TD x')) /\ sh_count sh' <= sh_count sh.
Proof.
  intros me sh x sh' x' rest (Hn & Hc & K) St. unfold tinv, local_post, dstep in *.
  destruct x as [pc id ex mx]. scbn. subst mx. destruct pc; scbn.
  - destruct (sh_mutex sh) eqn:Em; [discriminate|]. stepped St sh' x'.
  - destruct (mem id (sh_live sh)); stepped St sh' x'.
  - destruct (mem id (sh_live sh)) eqn:Em; stepped St sh' x'.
    + apply NoDup_filter. exact Hn.
    + pose proof (len_remove _ _ Hn Em). lia.
  - stepped St sh' x'.
  - stepped St sh' x'.
  - discriminate.
Qed.

Lemma bstep_local : forall me sh x sh' x' rest,
  tinv rest sh (TB x) -> bstep me sh x = Some (sh', x') ->
  tinv rest sh' (TB x') /\ local_post me sh (gin_cs (TB x)) sh' (gin_cs (TB x')) /\ sh_count sh' <= sh_count sh.
Proof.
  intros me sh x sh' x' rest (Hn & Hc & K) St. unfold tinv, local_post, bstep in *.
  destruct x as [pc ids n mx]. scbn. destruct K as [Km K]. subst mx. destruct pc; scbn.
  - destruct (sh_mutex sh) eqn:Em; [discriminate|]. stepped St sh' x'.
  - stepped St sh' x'.
  - cbv zeta in St. destruct (len (keep_in (sh_live sh) (dedup ids)) =? 0); stepped St sh' x'. apply NoDup_dedup.
  - destruct K as [Ku Kn]. stepped St sh' x'.
    + apply NoDup_filter. exact Hn.
    + pose proof (len_remove_all _ _ Hn Ku). lia.
  - stepped St sh' x'.
  - stepped St sh' x'.
  - discriminate.
Qed.

Lemma lstep_local : forall limit me sh x sh' x' rest,
  tinv rest sh (TL x) -> lstep limit me sh x = Some (sh', x') ->
  tinv rest sh' (TL x') /\ local_post me sh (gin_cs (TL x)) sh' (gin_cs (TL x')) /\ (sh_count sh <= limit -> sh_count sh' <= limit).
Proof.
  intros limit me sh x sh' x' rest (Hn & Hc & K) St. unfold tinv, local_post, lstep in *.
  destruct x as [pc items todo new reserved now refused]. destruct pc; scbn.
  - destruct (sh_mutex sh) eqn:Em; [discriminate|]. stepped St sh' x'.
  - subst todo. destruct (new_ids_spec (sh_live sh) (map fst items)) as (Nn & Nk & Nt). stepped St sh' x'.
  - destruct K as [Kn [Kk Kt]].
    destruct (negb (len new =? 0) && (limit <? sh_count sh + len new)) eqn:G; [stepped St sh' x'|].
    apply reserve_guard in G. stepped St sh' x'. rewrite Kk, len_nil. lia.
  - destruct K as [Kr [Kn Kt]]. destruct todo as [|[id [|]] restt]; [stepped St sh' x'| |]; cbn [map fst] in Kt.
    + destruct (add_reserved new (sh_live sh) id Kn (Kt id (or_introl eq_refl))) as [K1 K2].
      pose proof (len_keep_in_le (add (sh_live sh) id) new) as Hle.
      stepped St sh' x'.
      * apply NoDup_add. exact Hn.
      * apply (todo_ok_tail (sh_live sh) _ new id); [exact Kt|]. intros y Hy. apply In_add. left. exact Hy.
    + stepped St sh' x'. apply (todo_ok_tail (sh_live sh) _ new id); [exact Kt|auto].
  - stepped St sh' x'.
  - destruct K as [Kr Kw]. stepped St sh' x'.
  - stepped St sh' x'.
  - discriminate.
Qed.

Lemma tstep_local : forall limit me sh th sh' th' rest,
  tinv rest sh th -> tstep limit me sh th = Some (sh', th') ->
  tinv rest sh' th' /\ local_post me sh (gin_cs th) sh' (gin_cs th') /\ (sh_count sh <= limit -> sh_count sh' <= limit).
Proof.
  intros limit me sh th sh' th' rest I St. destruct th as [x|cur r|x|x|x]; cbn [tstep] in St.
  - destruct (istep limit me sh x) as [[sh1 x1]|] eqn:E; [|discriminate]. injection St as <- <-.
    exact (istep_local _ _ _ _ _ _ _ I E).
  - destruct (i_pc cur) eqn:Ep;
      try (destruct (istep limit me sh cur) as [[sh1 x1]|] eqn:E; [|discriminate]; injection St as <- <-;
           exact (istep_local _ _ _ _ _ _ _ I E)).
    (* the current item is done: the next one of the stream starts *)
    destruct r as [|[id ok] r]; [discriminate|]. injection St as <- <-.
    destruct I as (Hn & Hc & K). unfold tinv, local_post. cbn [gdebt gknow gin_cs] in *.
    unfold debt, know, in_cs in *. rewrite Ep in *. cbn.
    repeat split; try assumption; auto. destruct (i_ex cur); lia.
  - destruct (lstep limit me sh x) as [[sh1 x1]|] eqn:E; [|discriminate]. injection St as <- <-.
    exact (lstep_local _ _ _ _ _ _ _ I E).
  - destruct (dstep me sh x) as [[sh1 x1]|] eqn:E; [|discriminate]. injection St as <- <-.
    destruct (dstep_local _ _ _ _ _ _ I E) as (I' & P & L). split; [exact I'|]. split; [exact P|]. lia.
  - destruct (bstep me sh x) as [[sh1 x1]|] eqn:E; [|discriminate]. injection St as <- <-.
    destruct (bstep_local _ _ _ _ _ _ I E) as (I' & P & L). split; [exact I'|]. split; [exact P|]. lia.
Qed.

(* a call that has just arrived: Insert, BulkInsert, BulkLoadHnsw, Delete, BatchDelete (current protocol) *)
Definition fresh (th : thr) : Prop :=
  (exists id ok, th = TI (istart id ok)) \/ (exists id ok rest, th = TBI (istart id ok) rest)
  \/ (exists items, th = TL (lstart items)) \/ (exists id, th = TD (dstart id)) \/ (exists ids, th = TB (bstart ids)).
Lemma tdone_outside : forall th, tdone th = true -> gin_cs th = false.
Proof.
  intros th H. destruct th as [x|x r|x|x|x]; cbn in *.
  1, 2: unfold in_cs; destruct (i_pc x); try discriminate; reflexivity.
  - destruct (l_pc x); try discriminate; reflexivity.
  - destruct (d_pc x); try discriminate; reflexivity.
  - destruct (b_pc x); try discriminate; reflexivity.
Qed.

Lemma nth_set_same : forall A (l : list A) i old x, nth_error l i = Some old -> nth_error (set_nth l i x) i = Some x.
Proof.
  intros A l. induction l as [|a l IH]; intros i old x H; destruct i; cbn in *; try discriminate; [reflexivity|].
  eapply IH. exact H.
Qed.
Lemma nth_set_other : forall A (l : list A) i j x, j <> i -> nth_error (set_nth l i x) j = nth_error l j.
Proof.
  intros A l. induction l as [|a l IH]; intros i j x H; destruct i, j; cbn; try reflexivity; try congruence.
  apply IH. congruence.
Qed.
(* transient reservations held by all calls *)
Definition dsum (live : list N) (ths : list thr) : N := fold_right (fun th acc => gdebt live th + acc) 0 ths.
Lemma dsum_cons : forall live a l, dsum live (a :: l) = gdebt live a + dsum live l.
Proof. reflexivity. Qed.
Lemma dsum_ext : forall live live' ths, (forall y, In y ths -> gdebt live' y = gdebt live y) -> dsum live' ths = dsum live ths.
Proof.
  intros live live' ths. induction ths as [|a l IH]; intros H; [reflexivity|].
  rewrite !dsum_cons, (H a (or_introl eq_refl)), IH; [reflexivity|]. intros y Hy. apply H. right. exact Hy.
Qed.
(* R, the other calls' part, does not move when call i is replaced and the live set changes in a way their
   reservations do not see *)
Lemma dsum_decomp : forall live ths i th, nth_error ths i = Some th ->
  exists R, dsum live ths = gdebt live th + R /\
    forall live' x, (forall j y, j <> i -> nth_error ths j = Some y -> gdebt live' y = gdebt live y) ->
      dsum live' (set_nth ths i x) = gdebt live' x + R.
Proof.
  intros live ths. induction ths as [|a l IH]; intros i th H; destruct i; cbn [nth_error] in H; try discriminate.
  - injection H as ->. exists (dsum live l). split; [reflexivity|]. intros live' x F.
    cbn [set_nth]. rewrite dsum_cons. f_equal. apply dsum_ext.
    intros y Hy. destruct (In_nth_error l y Hy) as [n Hn]. exact (F (S n) y (Nat.neq_succ_0 n) Hn).
  - destruct (IH i th H) as [R [E1 E2]]. exists (gdebt live a + R). split.
    + rewrite dsum_cons, E1. lia.
    + intros live' x F. cbn [set_nth]. rewrite dsum_cons, (F 0%nat a (Nat.neq_0_succ i) eq_refl), E2; [lia|].
      intros j y Hj Hy. apply (F (S j) y); [congruence|exact Hy].
Qed.
Lemma dsum_all_outside : forall live ths, (forall x, In x ths -> gin_cs x = false) -> dsum live ths = 0.
Proof.
  intros live ths. induction ths as [|a l IH]; intros H; [reflexivity|].
  rewrite dsum_cons, (gdebt_outside live a (H a (or_introl eq_refl))), IH; [reflexivity|]. intros x Hx. apply H. right. exact Hx.
Qed.

Definition held (sh : shared) (j : nat) : bool := match sh_mutex sh with Some w => Nat.eqb w j | None => false end.
Lemma held_iff : forall sh j, held sh j = true <-> sh_mutex sh = Some j.
Proof.
  intros sh j. unfold held. destruct (sh_mutex sh) as [w|]; [rewrite Nat.eqb_eq; split; congruence | split; discriminate].
Qed.
Lemma local_post_held : forall me sh cs sh' cs', local_post me sh cs sh' cs' -> cs = held sh me ->
  forall j, held sh' j = if Nat.eqb j me then cs' else held sh j.
Proof.
  intros me sh cs sh' cs' [_ M] C j. unfold held in *. destruct cs, cs'; cbn in M.
  - rewrite M. destruct (Nat.eqb_spec j me) as [->|Hj]; [symmetry; exact C|reflexivity].
  - rewrite M. destruct (sh_mutex sh) as [w|]; [|discriminate C]. symmetry in C. apply Nat.eqb_eq in C. subst w.
    destruct (Nat.eqb_spec j me) as [->|Hj]; [reflexivity|]. symmetry. apply Nat.eqb_neq. congruence.
  - destruct M as [M0 M]. rewrite M, M0. destruct (Nat.eqb_spec j me) as [->|Hj]; [apply Nat.eqb_refl|apply Nat.eqb_neq; congruence].
  - rewrite M. destruct (Nat.eqb_spec j me) as [->|Hj]; [symmetry; exact C|reflexivity].
Qed.

(* The counter is ahead of the live set by exactly the reservations / not-yet-applied decrements of the calls
   currently inside their critical sections; a call is inside its critical section iff it holds the mutex (so at
   most one is); each call's local knowledge holds. *)
Definition minv (sh : shared) (ths : list thr) : Prop :=
  NoDup (sh_live sh)
  /\ sh_count sh = len (sh_live sh) + dsum (sh_live sh) ths
  /\ (forall j x, nth_error ths j = Some x -> gknow (sh_live sh) x /\ gin_cs x = held sh j)
  /\ (forall w, sh_mutex sh = Some w -> exists x, nth_error ths w = Some x).

Lemma minv_step : forall limit sh ths i th sh' th',
  minv sh ths -> nth_error ths i = Some th -> tstep limit i sh th = Some (sh', th') ->
  minv sh' (set_nth ths i th') /\ (sh_count sh <= limit -> sh_count sh' <= limit).
Proof.
  intros limit sh ths i th sh' th' [Hn [Hc [Hall Hh]]] Hi St.
  destruct (dsum_decomp (sh_live sh) ths i th Hi) as [R [E1 E2]].
  destruct (Hall i th Hi) as [Ka Ma].
  assert (Hc0 : sh_count sh = len (sh_live sh) + gdebt (sh_live sh) th + R) by lia.
  destruct (tstep_local limit i sh th sh' th' R (conj Hn (conj Hc0 Ka)) St) as [[Hn' [Hc' Ka']] [P Hle]].
  split; [|exact Hle].
  pose proof (local_post_held _ _ _ _ _ P Ma) as Hm.
  (* every other call is outside its critical section (this one holds the mutex) or sees the same live set *)
  assert (F : forall j y, j <> i -> nth_error ths j = Some y -> gin_cs y = false \/ sh_live sh' = sh_live sh).
  { intros j y Hj Hy. destruct (gin_cs th) eqn:Ia; [left|right; exact (proj1 P eq_refl)].
    rewrite (proj2 (Hall j y Hy)). symmetry in Ma. apply held_iff in Ma. unfold held. rewrite Ma.
    apply Nat.eqb_neq. congruence. }
  split; [exact Hn'|]. split; [|split].
  - rewrite E2; [lia|]. intros j y Hj Hy. destruct (F j y Hj Hy) as [O| ->]; [rewrite !(gdebt_outside _ _ O)|]; reflexivity.
  - intros j x Hjx. rewrite Hm. destruct (Nat.eqb_spec j i) as [->|Hj].
    + rewrite (nth_set_same _ _ _ _ _ Hi) in Hjx. inversion Hjx; subst. auto.
    + rewrite nth_set_other in Hjx by exact Hj. destruct (Hall j x Hjx) as [Kx Mx]. split; [|exact Mx].
      destruct (F j x Hj Hjx) as [O| ->]; [exact (gknow_outside _ _ _ O Kx)|exact Kx].
  - intros w Hw. destruct (Nat.eq_dec w i) as [->|Hwi]; [exists th'; exact (nth_set_same _ _ _ _ _ Hi)|].
    rewrite nth_set_other by exact Hwi. apply Hh, held_iff. apply held_iff in Hw. rewrite Hm in Hw.
    apply Nat.eqb_neq in Hwi. rewrite Hwi in Hw. exact Hw.
Qed.

Definition many_inv (limit : N) (c : mconf) : Prop := minv (m_sh c) (m_ths c) /\ sh_count (m_sh c) <= limit.
Lemma mstep_inv : forall limit c i, many_inv limit c -> many_inv limit (mstep limit c i).
Proof.
  intros limit c i [I Hl]. unfold mstep.
  destruct (nth_error (m_ths c) i) as [th|] eqn:Hi; [|split; assumption].
  destruct (tstep limit i (m_sh c) th) as [[sh' th']|] eqn:St; [|split; assumption].
  destruct (minv_step _ _ _ _ _ _ _ I Hi St) as [I' L]. split; cbn; auto.
Qed.
Lemma mrun_inv : forall limit sched c, many_inv limit c -> many_inv limit (mrun limit sched c).
Proof. intros limit sched. apply fold_left_inv. apply mstep_inv. Qed.
(* a call that is not inside a critical section and needs no knowledge: just arrived, or returned *)
Definition calm (x : thr) : Prop := gin_cs x = false /\ forall live, gknow live x.
Lemma fresh_calm : forall x, fresh x -> calm x.
Proof. intros x [[id [ok E]]|[[id [ok [rest E]]]|[[items E]|[[id E]|[ids E]]]]]; subst; split; cbn; auto. Qed.
Lemma minv_start : forall count live ths,
  NoDup live -> count = len live -> (forall x, In x ths -> calm x) ->
  minv (mkSh None count live) ths.
Proof.
  intros count live ths Hn Hc Hf. unfold minv. cbn [sh_live sh_count sh_mutex].
  split; [exact Hn|]. split; [|split; [|intros w Hw; discriminate]].
  - rewrite dsum_all_outside; [lia|]. intros x Hx. apply (Hf x Hx).
  - intros j x Hjx. apply nth_error_In in Hjx. destruct (Hf x Hjx) as [A B].
    split; [apply B|exact A].
Qed.
Lemma many_inv_start : forall limit count live ths,
  NoDup live -> count = len live -> count <= limit -> Forall fresh ths ->
  many_inv limit (mstart count live ths).
Proof.
  intros limit count live ths Hn Hc Hl Hf. rewrite Forall_forall in Hf.
  split; [|exact Hl]. apply minv_start; try assumption. intros x Hx. apply fresh_calm. apply Hf. exact Hx.
Qed.

Lemma minv_free : forall sh ths, minv sh ths ->
  (sh_mutex sh = None -> sh_count sh = len (sh_live sh))
  /\ ((forall x, In x ths -> gin_cs x = false) -> sh_count sh = len (sh_live sh) /\ sh_mutex sh = None).
Proof.
  intros sh ths [Hn [Hc [Hall Hh]]].
  assert (Free : (forall x, In x ths -> gin_cs x = false) -> sh_count sh = len (sh_live sh)).
  { intros H. rewrite (dsum_all_outside _ _ H) in Hc. lia. }
  split.
  - intros Em. apply Free. intros x Hx. destruct (In_nth_error _ _ Hx) as [j Hj].
    rewrite (proj2 (Hall j x Hj)). unfold held. rewrite Em. reflexivity.
  - intros O. split; [apply Free; exact O|].
    destruct (sh_mutex sh) as [w|] eqn:Em; [|reflexivity]. exfalso.
    destruct (Hh w eq_refl) as [x Hx]. destruct (Hall w x Hx) as [_ M].
    rewrite (O x (nth_error_In _ _ Hx)) in M. unfold held in M. rewrite Em, Nat.eqb_refl in M. discriminate.
Qed.

Definition to_m (c : conf) : mconf := mkM (c_sh c) [c_a c; c_b c].
Lemma cstep_sim : forall limit c who, to_m (cstep limit c who) = mstep limit (to_m c) (if who then 1 else 0)%nat.
Proof.
  intros limit c who. unfold cstep, mstep, to_m. destruct who; cbn [nth_error m_ths m_sh].
  - destruct (tstep limit 1%nat (c_sh c) (c_b c)) as [[sh b']|]; reflexivity.
  - destruct (tstep limit 0%nat (c_sh c) (c_a c)) as [[sh a']|]; reflexivity.
Qed.
Lemma crun_sim : forall limit sched c,
  to_m (crun limit sched c) = mrun limit (map (fun w : bool => if w then 1 else 0)%nat sched) (to_m c).
Proof.
  intros limit sched. induction sched as [|w sched IH]; intros c; [reflexivity|].
  cbn [crun mrun fold_left map]. fold (crun limit sched (cstep limit c w)). rewrite IH. rewrite cstep_sim. reflexivity.
Qed.
(* ---- several tenants.  A call of tenant u is invisible to tenant t <> u: in t's view it is an idle,
   returned call *)
Definition idle : thr := TD (mkD DDone 0 false true).
Definition view (t : N) (p : N * thr) : thr := if fst p =? t then snd p else idle.
Lemma view_own : forall t x, view t (t, x) = x.
Proof. intros. unfold view. cbn [fst snd]. rewrite N.eqb_refl. reflexivity. Qed.
Lemma view_other : forall t u x, t <> u -> view t (u, x) = idle.
Proof. intros t u x H. unfold view. cbn [fst snd]. apply N.eqb_neq in H. rewrite N.eqb_sym, H. reflexivity. Qed.
Lemma idle_calm : calm idle. Proof. split; [reflexivity|intros live; reflexivity]. Qed.
Lemma map_set_nth : forall A B (f : A -> B) l i y, map f (set_nth l i y) = set_nth (map f l) i (f y).
Proof. intros A B f l. induction l as [|a l IH]; intros i y; destruct i; cbn; try reflexivity. rewrite IH. reflexivity. Qed.
Lemma set_nth_same : forall A (l : list A) i x, nth_error l i = Some x -> set_nth l i x = l.
Proof. intros A l. induction l as [|a l IH]; intros i x H; destruct i; cbn in *; try discriminate; [inversion H; reflexivity|]. rewrite IH by exact H. reflexivity. Qed.

Definition winv (limit : N -> N) (c : wconf) : Prop :=
  forall t, minv (w_sh c t) (map (view t) (w_ths c)) /\ sh_count (w_sh c t) <= limit t.

Lemma wstep_inv : forall limit c i, winv limit c -> winv limit (wstep limit c i).
Proof.
  intros limit c i W. unfold wstep.
  destruct (nth_error (w_ths c) i) as [[u th]|] eqn:Hi; [|exact W].
  destruct (tstep (limit u) i (w_sh c u) th) as [[sh' th']|] eqn:St; [|exact W].
  intros t. cbn [w_sh w_ths]. rewrite map_set_nth. unfold wset.
  pose proof (map_nth_error (view t) i (w_ths c) Hi) as Hv.
  destruct (N.eq_dec t u) as [<-|E].
  - rewrite N.eqb_refl. rewrite view_own in *. destruct (W t) as [I Hl].
    destruct (minv_step _ _ _ _ _ _ _ I Hv St) as [I' L]. auto.
  - rewrite (proj2 (N.eqb_neq t u) E). rewrite (view_other t u) in * by exact E.
    rewrite (set_nth_same _ _ _ _ Hv). apply W.
Qed.
Lemma wrun_inv : forall limit sched c, winv limit c -> winv limit (wrun limit sched c).
Proof. intros limit sched. apply fold_left_inv. apply wstep_inv. Qed.

Lemma winv_start : forall (limit : N -> N) (w0 : N -> shared) (ths : list (N * thr)),
  (forall t, NoDup (sh_live (w0 t)) /\ sh_count (w0 t) = len (sh_live (w0 t)) /\ sh_count (w0 t) <= limit t
             /\ sh_mutex (w0 t) = None) ->
  Forall (fun p => fresh (snd p)) ths -> winv limit (mkW w0 ths).
Proof.
  intros limit w0 ths H0 Hf u. cbn [w_sh w_ths]. destruct (H0 u) as [A [B [C D]]]. split; [|exact C].
  destruct (w0 u) as [m cnt lv]. cbn in *. subst m. apply minv_start; try assumption.
  intros x Hx. apply in_map_iff in Hx. destruct Hx as [[v th] [E Hin]]. subst x. unfold view. cbn.
  destruct (v =? u); [|apply idle_calm]. apply fresh_calm. rewrite Forall_forall in Hf. apply (Hf (v, th) Hin).
Qed.

(* ---- REGRESSION DOCUMENTATION: the protocol BEFORE /repo 3784711 (Delete / BatchDelete without the
   quota mutex: dstart_old / bstart_old).  Schedules from an exact state (limit 2) that end, both calls
   returned, with the count one short of the live documents: Properties/C14.v runs them. *)
(* X = 1 live, overwrite sees "exists", delete removes and decrements, overwrite re-creates *)
Definition w_overwrite_delete := [false; false; true; true; true; true; true; false; false; false; false; false].
(* bulk load over a live id: nothing reserved, delete decrements, load re-creates *)
Definition w_load_over_delete := [false; false; false; true; true; true; true; true; false; false; false; false; false].
(* bulk load of a NEW id: reserved, loaded, deleted (decrement), then "not inserted" => released too *)
Definition w_load_new_delete := [false; false; false; false; true; true; true; true; true; false; false; false; false].
(* insert of a NEW id: delete lands between the cold-tier insert and the coherence-token read *)
Definition w_insert_new_delete := [false; false; false; false; true; true; true; true; true; false; false; false].
(* delete || batch delete of the same id: the batch's pre-count and the delete both report it *)
Definition w_delete_batch := [false; false; false; true; true; true; true; true; false; false; false].
