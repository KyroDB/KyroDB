(* The power-loss model of Model/Crash.v (C01, fsync policy Always): its name-space / inode bookkeeping simulates
   apply_eff, and every view a loss choice can produce starts up as the acknowledged or the in-flight collection. *)
From Coq Require Import List NArith ZArith Bool Lia.
From Kyro Require Import Model.Amap Model.Backend Model.Crash Proofs.ListFacts Proofs.AmapProofs Proofs.BackendProofs
  Proofs.CrashProofs.
Import ListNotations.
Open Scope N_scope.

Lemma firstn_app_le : forall A (a b : list A) k, (k <= length a)%nat -> firstn k (a ++ b) = firstn k a.
Proof.
  intros A a b k H. rewrite firstn_app. replace (k - length a)%nat with 0%nat by lia. cbn. apply app_nil_r.
Qed.

Lemma firstn_app_ge : forall A (a b : list A) k, (length a <= k)%nat -> firstn k (a ++ b) = a ++ firstn (k - length a) b.
Proof.
  intros A a b k H. rewrite firstn_app. rewrite firstn_all2 by exact H. reflexivity.
Qed.

Lemma firstn_S_nth : forall A (l : list A) k e, nth_error l k = Some e -> firstn (S k) l = firstn k l ++ [e].
Proof.
  induction l as [|x r IH]; intros k e H; destruct k; cbn in *; try discriminate.
  - inversion H. reflexivity.
  - rewrite (IH k e H). reflexivity.
Qed.

Definition nsT := list (name * nat).

Lemma ns_get_remove_same : forall (ns : nsT) k, ns_get (ns_remove ns k) k = None.
Proof.
  induction ns as [|[k0 i] r IH]; intros k; cbn; [reflexivity|].
  destruct (name_eqb_spec k0 k); [apply IH|]. cbn. rewrite name_eqb_neq by assumption. apply IH.
Qed.

Lemma ns_get_remove_other : forall (ns : nsT) k x, x <> k -> ns_get (ns_remove ns k) x = ns_get ns x.
Proof.
  induction ns as [|[k0 i] r IH]; intros k x H; cbn; [reflexivity|].
  destruct (name_eqb_spec k0 k); cbn.
  - subst k0. rewrite name_eqb_neq by congruence. apply IH; assumption.
  - destruct (name_eqb_spec k0 x); [reflexivity|]. apply IH; assumption.
Qed.

Lemma ns_get_app : forall (a b : nsT) x,
  ns_get (a ++ b) x = match ns_get a x with Some i => Some i | None => ns_get b x end.
Proof.
  induction a as [|[k0 i] r IH]; intros b x; cbn; [reflexivity|].
  destruct (name_eqb k0 x); [reflexivity|apply IH].
Qed.

Lemma ns_get_set_same : forall (ns : nsT) k i, ns_get (ns_set ns k i) k = Some i.
Proof.
  intros. unfold ns_set. rewrite ns_get_app, ns_get_remove_same. cbn. rewrite name_eqb_refl. reflexivity.
Qed.

Lemma ns_get_set_other : forall (ns : nsT) k i x, x <> k -> ns_get (ns_set ns k i) x = ns_get ns x.
Proof.
  intros ns k i x H. unfold ns_set. rewrite ns_get_app, ns_get_remove_other by assumption.
  destruct (ns_get ns x); [reflexivity|]. cbn. rewrite name_eqb_neq by congruence. reflexivity.
Qed.

Lemma ns_get_remove_inv : forall (ns : nsT) k x j, ns_get (ns_remove ns k) x = Some j -> x <> k /\ ns_get ns x = Some j.
Proof.
  intros ns k x j H. destruct (name_eqb_spec x k) as [->|Ne].
  - rewrite ns_get_remove_same in H. discriminate.
  - rewrite ns_get_remove_other in H by exact Ne. auto.
Qed.

Lemma ns_get_set_inv : forall (ns : nsT) k i x j, ns_get (ns_set ns k i) x = Some j ->
  (x = k /\ j = i) \/ (x <> k /\ ns_get ns x = Some j).
Proof.
  intros ns k i x j H. destruct (name_eqb_spec x k) as [->|Ne].
  - rewrite ns_get_set_same in H. inversion H. auto.
  - rewrite ns_get_set_other in H by exact Ne. auto.
Qed.

(* a view: one version of the name space, one version of every inode *)
Definition mkview (N : nsT) (ch : nat -> file) : dir := map (fun ki : name * nat => (fst ki, ch (snd ki))) N.

Lemma dget_mkview : forall N ch x, dget (mkview N ch) x = option_map ch (ns_get N x).
Proof.
  induction N as [|[k i] r IH]; intros ch x; cbn; [reflexivity|].
  destruct (name_eqb k x); [reflexivity|apply IH].
Qed.

Lemma nth_clamped_in : forall A (l : list A) i d, l <> [] -> In (nth_clamped l i d) l.
Proof.
  intros A l i d H. unfold nth_clamped. apply nth_In. destruct l; [contradiction|]. cbn [length]. lia.
Qed.

Lemma pview_mkview : forall P l,
  pview P l = mkview (nth_clamped (p_ns P) (l_dir l) [])
                     (fun i => nth_clamped (nth i (p_inodes P) []) (l_data l i) FEmpty).
Proof. reflexivity. Qed.

Definition inj (N : nsT) : Prop := forall x y i, ns_get N x = Some i -> ns_get N y = Some i -> x = y.

Record WF (P : pfs) : Prop := {
  wf_ns : p_ns P <> [];
  wf_inodes : Forall (fun v : inode => v <> []) (p_inodes P);
  wf_bound : forall N x i, In N (p_ns P) -> ns_get N x = Some i -> (i < length (p_inodes P))%nat;
  wf_inj : inj (cur_ns P)
}.

Arguments wf_ns {P}.
Arguments wf_inodes {P}.
Arguments wf_bound {P}.
Arguments wf_inj {P}.

Definition Sim (P : pfs) (d : dir) : Prop :=
  forall x, dget d x = option_map (cur_content P) (ns_get (cur_ns P) x).

Lemma cur_ns_in : forall P, p_ns P <> [] -> In (cur_ns P) (p_ns P).
Proof.
  intros P H. unfold cur_ns, last_or. destruct (p_ns P) as [|a l]; [contradiction|].
  clear H. revert a. induction l as [|b l IH]; intros a; cbn; [left; reflexivity|].
  right. apply IH.
Qed.

Lemma wf_cur_bound : forall P x j, WF P -> ns_get (cur_ns P) x = Some j -> (j < length (p_inodes P))%nat.
Proof. intros P x j W H. exact (wf_bound W _ x j (cur_ns_in P (wf_ns W)) H). Qed.

Lemma inj_remove : forall N a, inj N -> inj (ns_remove N a).
Proof. intros N a H x y j Hx Hy. apply ns_get_remove_inv in Hx, Hy. exact (H x y j (proj2 Hx) (proj2 Hy)). Qed.

Lemma inj_set : forall N k i, inj N -> (forall y, ns_get N y = Some i -> y = k) -> inj (ns_set N k i).
Proof.
  intros N k i H Hi x y j Hx Hy.
  destruct (ns_get_set_inv _ _ _ _ _ Hx) as [[-> ->]|[_ Hx']]; destruct (ns_get_set_inv _ _ _ _ _ Hy) as [[-> E]|[_ Hy']].
  - reflexivity.
  - symmetry. exact (Hi y Hy').
  - subst j. exact (Hi x Hx').
  - exact (H x y j Hx' Hy').
Qed.

Lemma nth_upd_same : forall A (l : list A) i f d, (i < length l)%nat -> nth i (upd_nth l i f) d = f (nth i l d).
Proof.
  induction l as [|x r IH]; intros i f d H; cbn in H; [lia|]. destruct i; cbn; [reflexivity|]. apply IH. lia.
Qed.

Lemma nth_upd_other : forall A (l : list A) i j f d, i <> j -> nth j (upd_nth l i f) d = nth j l d.
Proof.
  induction l as [|x r IH]; intros i j f d H; cbn; [reflexivity|].
  destruct i, j; cbn; try reflexivity; try congruence. apply IH. congruence.
Qed.

Lemma upd_nth_length : forall A (l : list A) i f, length (upd_nth l i f) = length l.
Proof. induction l as [|x r IH]; intros i f; cbn; [reflexivity|]. destruct i; cbn; [reflexivity|]. rewrite IH. reflexivity. Qed.

Lemma upd_nth_forall : forall A (P : A -> Prop) (l : list A) i f,
  Forall P l -> (forall x, P x -> P (f x)) -> Forall P (upd_nth l i f).
Proof.
  induction l as [|x r IH]; intros i f H Hf; cbn; [constructor|].
  inversion H; subst. destruct i; constructor; auto.
Qed.

Lemma data_effect : forall d e f c,
  (match e with EAppend g _ | ETrunc g _ => g = f | _ => False end) ->
  dget d f = Some c ->
  dget (apply_eff d e) f = Some (content_after c f e) /\
  (forall x, x <> f -> dget (apply_eff d e) x = dget d x).
Proof.
  intros d e f c He Hc. unfold content_after.
  destruct e as [g tr|g b|g n|g|g|a b|g| |g co]; try contradiction; subst g;
    cbn [apply_eff]; rewrite Hc; cbn [dget]; rewrite name_eqb_refl.
  - destruct c as [| frs [| |] | | |]; destruct b;
      (split; [dsimp; cbn [dget]; rewrite ?name_eqb_refl; first [reflexivity|exact Hc]|intros x Hx; dsimp; reflexivity]).
  - destruct c as [| frs t | | |];
      (split; [dsimp; cbn [dget]; rewrite ?name_eqb_refl; first [reflexivity|exact Hc]|intros x Hx; dsimp; reflexivity]).
Qed.

Lemma cur_content_upd : forall P i g j, (i < length (p_inodes P))%nat ->
  cur_content (mkPfs (upd_nth (p_inodes P) i g) (p_ns P)) j =
  if Nat.eqb j i then last_or (g (nth i (p_inodes P) [])) FEmpty else cur_content P j.
Proof.
  intros P i g j H. unfold cur_content. cbn [p_inodes].
  destruct (Nat.eqb_spec j i) as [->|N].
  - rewrite nth_upd_same by exact H. reflexivity.
  - rewrite nth_upd_other by congruence. reflexivity.
Qed.

Lemma sim_none : forall P d x, Sim P d -> (dget d x = None <-> ns_get (cur_ns P) x = None).
Proof. intros P d x S. rewrite (S x). destruct (ns_get (cur_ns P) x); cbn; split; congruence. Qed.

Lemma push_content : forall P d f i c', WF P -> Sim P d -> ns_get (cur_ns P) f = Some i ->
  let P' := mkPfs (upd_nth (p_inodes P) i (fun v => v ++ [c'])) (p_ns P) in
  WF P' /\ Sim P' (dset d f c').
Proof.
  intros P d f i c' W S Hf P'. pose proof (wf_cur_bound P f i W Hf) as Hi. destruct W as [W1 W2 W3 W4].
  split.
  - constructor; cbn [p_ns p_inodes P'].
    + exact W1.
    + apply upd_nth_forall; [exact W2|]. intros v _. destruct v; discriminate.
    + intros N x j HN Hx. rewrite upd_nth_length. eapply W3; eassumption.
    + exact W4.
  - intros x. unfold P'. change (cur_ns (mkPfs _ (p_ns P))) with (cur_ns P).
    destruct (name_eqb_spec x f) as [->|Hne].
    + rewrite dget_dset_same, Hf. cbn [option_map]. rewrite cur_content_upd by exact Hi.
      rewrite Nat.eqb_refl. unfold last_or. rewrite last_last. reflexivity.
    + rewrite dget_dset_other by exact Hne. rewrite (S x).
      destruct (ns_get (cur_ns P) x) as [j|] eqn:E; [|reflexivity]. cbn [option_map].
      rewrite cur_content_upd by exact Hi. destruct (Nat.eqb_spec j i) as [->|_]; [|reflexivity].
      exfalso. apply Hne. eapply W4; eassumption.
Qed.

Lemma collapse_content : forall P d i, WF P -> Sim P d -> (i < length (p_inodes P))%nat ->
  let P' := mkPfs (upd_nth (p_inodes P) i (fun v => [last_or v FEmpty])) (p_ns P) in
  WF P' /\ Sim P' d.
Proof.
  intros P d i W S Hi P'. destruct W as [W1 W2 W3 W4]. split.
  - constructor; cbn [p_ns p_inodes P'].
    + exact W1.
    + apply upd_nth_forall; [exact W2|]. intros v _. discriminate.
    + intros N x j HN Hx. rewrite upd_nth_length. eapply W3; eassumption.
    + exact W4.
  - intros x. unfold P'. change (cur_ns (mkPfs _ (p_ns P))) with (cur_ns P). rewrite (S x).
    destruct (ns_get (cur_ns P) x) as [j|]; [|reflexivity]. cbn [option_map].
    rewrite cur_content_upd by exact Hi. destruct (Nat.eqb_spec j i) as [->|_]; reflexivity.
Qed.

Lemma cur_ns_push : forall P N, cur_ns (push_ns P N) = N.
Proof. intros. unfold cur_ns, push_ns, last_or. cbn [p_ns]. apply last_last. Qed.

Lemma new_file : forall P d f c, WF P -> Sim P d -> ns_get (cur_ns P) f = None ->
  let P' := mkPfs (p_inodes P ++ [[c]]) (p_ns P ++ [ns_set (cur_ns P) f (length (p_inodes P))]) in
  WF P' /\ Sim P' (dset d f c).
Proof.
  intros P d f c W S Hf P'. pose proof (fun x j => wf_cur_bound P x j W) as Hold. destruct W as [W1 W2 W3 W4].
  assert (Hcur : cur_ns P' = ns_set (cur_ns P) f (length (p_inodes P)))
    by (unfold cur_ns at 1, last_or; cbn [p_ns P']; apply last_last).
  split.
  - constructor; cbn [p_ns p_inodes P'].
    + destruct (p_ns P); discriminate.
    + apply Forall_app. split; [exact W2|]. constructor; [discriminate|constructor].
    + intros N x j HN Hx. rewrite app_length. cbn [length]. apply in_app_or in HN. destruct HN as [HN|[<-|[]]].
      * pose proof (W3 N x j HN Hx). lia.
      * destruct (ns_get_set_inv _ _ _ _ _ Hx) as [[_ ->]|[_ Hx']]; [lia|pose proof (Hold _ _ Hx'); lia].
    + rewrite Hcur. apply inj_set; [exact W4|]. intros y Hy. pose proof (Hold _ _ Hy). lia.
  - intros x. rewrite Hcur. unfold cur_content. cbn [p_inodes P'].
    destruct (name_eqb_spec x f) as [->|Hne].
    + rewrite dget_dset_same, ns_get_set_same. cbn [option_map]. rewrite nth_middle. reflexivity.
    + rewrite dget_dset_other, ns_get_set_other by exact Hne. rewrite (S x).
      destruct (ns_get (cur_ns P) x) as [j|] eqn:E; [|reflexivity]. cbn [option_map].
      rewrite app_nth1 by (eapply Hold; exact E). reflexivity.
Qed.

Lemma push_ns_sim : forall P N' d',
  WF P -> (forall x j, ns_get N' x = Some j -> (j < length (p_inodes P))%nat) -> inj N' ->
  (forall x, dget d' x = option_map (cur_content P) (ns_get N' x)) ->
  WF (push_ns P N') /\ Sim (push_ns P N') d'.
Proof.
  intros P N' d' [W1 W2 W3 W4] Hb Hi Hd. split.
  - constructor; cbn [push_ns p_ns p_inodes].
    + destruct (p_ns P); discriminate.
    + exact W2.
    + intros N x j HN Hx. apply in_app_or in HN. destruct HN as [HN|[<-|[]]]; [eapply W3; eassumption|eapply Hb; exact Hx].
    + rewrite cur_ns_push. exact Hi.
  - intros x. rewrite cur_ns_push. exact (Hd x).
Qed.

Lemma sim_data : forall P d e f i, WF P -> Sim P d ->
  (match e with EAppend g _ | ETrunc g _ => g = f | _ => False end) -> ns_get (cur_ns P) f = Some i ->
  let P' := mkPfs (upd_nth (p_inodes P) i (fun v => v ++ [content_after (cur_content P i) f e])) (p_ns P) in
  WF P' /\ Sim P' (apply_eff d e).
Proof.
  intros P d e f i W S He E P'. subst P'. pose proof (S f) as Sf. rewrite E in Sf. cbn [option_map] in Sf.
  destruct (data_effect d e f _ He Sf) as [A B].
  destruct (push_content P d f i (content_after (cur_content P i) f e) W S E) as [W' S'].
  split; [exact W'|]. intros x. rewrite <- (S' x).
  destruct (name_eqb_spec x f) as [->|Hne]; [rewrite A; dsimp; reflexivity|rewrite B by exact Hne; dsimp; reflexivity].
Qed.

Theorem sim_step : forall P d e, WF P -> Sim P d -> WF (papply P e) /\ Sim (papply P e) (apply_eff d e).
Proof.
  intros P d e W S.
  pose proof (fun x j => wf_cur_bound P x j W) as Hbound.
  assert (Hsync : forall f, WF (papply P (EFsync f)) /\ Sim (papply P (EFsync f)) d).
  { intros f. cbn [papply]. destruct (ns_get (cur_ns P) f) as [i|] eqn:E; [|split; assumption].
    apply collapse_content; [exact W|exact S|eapply Hbound; exact E]. }
  destruct e as [f tr|f b|f n|f|f|a b|f| |f co]; cbn [papply].
  - cbn [apply_eff].
    pose proof (S f) as Sf. destruct (ns_get (cur_ns P) f) as [i|] eqn:E; cbn [option_map] in Sf; rewrite Sf.
    + destruct tr; [|split; assumption]. apply (push_content P d f i FEmpty W S E).
    + apply (new_file P d f FEmpty W S E).
  - pose proof (S f) as Sf. destruct (ns_get (cur_ns P) f) as [i|] eqn:E; cbn [option_map] in Sf;
      [exact (sim_data P d (EAppend f b) f i W S eq_refl E)|].
    cbn [apply_eff]. rewrite Sf. destruct b; split; assumption.
  - pose proof (S f) as Sf. destruct (ns_get (cur_ns P) f) as [i|] eqn:E; cbn [option_map] in Sf;
      [exact (sim_data P d (ETrunc f n) f i W S eq_refl E)|].
    cbn [apply_eff]. rewrite Sf. split; assumption.
  - exact (Hsync f).
  - exact (Hsync f).
  - cbn [apply_eff].
    pose proof (S a) as Sa. destruct (ns_get (cur_ns P) a) as [i|] eqn:E; cbn [option_map] in Sa; rewrite Sa;
      [|split; assumption].
    apply push_ns_sim; [exact W| | |].
    + intros x j Hx. destruct (ns_get_set_inv _ _ _ _ _ Hx) as [[_ ->]|[_ Hx']]; [exact (Hbound _ _ E)|].
      apply ns_get_remove_inv in Hx'. exact (Hbound _ _ (proj2 Hx')).
    + (* no other name is bound to the inode of a *)
      apply inj_set; [apply inj_remove; exact (wf_inj W)|].
      intros y Hy. apply ns_get_remove_inv in Hy. destruct Hy as [Na Hy]. exfalso. apply Na. exact (wf_inj W _ _ _ Hy E).
    + intros x. destruct (name_eqb_spec x b) as [->|Nb].
      * rewrite dget_dset_same, ns_get_set_same. reflexivity.
      * rewrite dget_dset_other, ns_get_set_other by exact Nb. destruct (name_eqb_spec x a) as [->|Na].
        -- rewrite dget_dremove_same, ns_get_remove_same. reflexivity.
        -- rewrite dget_dremove_other, ns_get_remove_other by exact Na. apply S.
  - cbn [apply_eff].
    destruct (ns_get (cur_ns P) f) as [i|] eqn:E.
    + apply push_ns_sim; [exact W| | |].
      * intros x j Hx. apply ns_get_remove_inv in Hx. exact (Hbound _ _ (proj2 Hx)).
      * apply inj_remove. exact (wf_inj W).
      * intros x. destruct (name_eqb_spec x f) as [->|Nf].
        -- rewrite dget_dremove_same, ns_get_remove_same. reflexivity.
        -- rewrite dget_dremove_other, ns_get_remove_other by exact Nf. apply S.
    + split; [exact W|]. intros x. destruct (name_eqb_spec x f) as [->|Nf].
      * rewrite dget_dremove_same, E. reflexivity.
      * rewrite dget_dremove_other by exact Nf. apply S.
  - cbn [apply_eff].
    destruct W as [W1 W2 W3 W4]. split.
    + constructor; cbn [p_ns p_inodes].
      * discriminate.
      * exact W2.
      * intros N x j [<-|[]] Hx. eapply Hbound; exact Hx.
      * exact W4.
    + exact S.
  - cbn [apply_eff].
    pose proof (S f) as Sf. destruct (ns_get (cur_ns P) f) as [i|] eqn:E; cbn [option_map] in Sf.
    + apply (push_content P d f i co W S E).
    + apply (new_file P d f co W S E).
Qed.

Lemma sim_steps : forall es P d, WF P -> Sim P d ->
  WF (papply_all P es) /\ Sim (papply_all P es) (apply_effs d es).
Proof.
  induction es as [|e r IH]; intros P d W S; [split; assumption|].
  destruct (sim_step P d e W S) as [W' S']. exact (IH _ _ W' S').
Qed.

Definition refs (m : manifest) (x : name) : Prop :=
  x = NManifest \/ In x (m_segments m) \/ m_snapshot m = Some x.

(* name x is bound in N to an inode below B whose only version is co *)
Definition pinned (P : pfs) (N : nsT) (B : nat) (x : name) (co : file) : Prop :=
  exists i, ns_get N x = Some i /\ nth i (p_inodes P) [] = [co] /\ (i < B)%nat.

(* version N of the name space is read, whatever survives of the un-synced data, as directory K:
   everything K's manifest references is pinned in N to K's content *)
Definition Anch (c : cfg) (X : store) (P : pfs) (N : nsT) (B : nat) : Prop :=
  exists K m, RecM c X K m /\ forall x, refs m x -> exists co, dget K x = Some co /\ pinned P N B x co.

Definition valid_ch (P : pfs) (ch : nat -> file) : Prop :=
  forall i, (i < length (p_inodes P))%nat -> In (ch i) (nth i (p_inodes P) []).

Lemma nth_singleton_lt : forall (l : list inode) i co, nth i l [] = [co] -> (i < length l)%nat.
Proof.
  intros l i co H. destruct (Nat.lt_ge_cases i (length l)) as [L|G]; [exact L|].
  rewrite nth_overflow in H by exact G. discriminate.
Qed.

Lemma clamped_valid : forall P l, WF P ->
  valid_ch P (fun i => nth_clamped (nth i (p_inodes P) []) (l_data l i) FEmpty).
Proof.
  intros P l W i Hi. apply nth_clamped_in.
  pose proof (wf_inodes W) as F. rewrite Forall_forall in F. apply F. apply nth_In. exact Hi.
Qed.

Lemma Anch_view : forall c X P N B ch, Anch c X P N B -> valid_ch P ch -> Rec c X (mkview N ch).
Proof.
  intros c X P N B ch (K & m & R & Hp) Hv. exists m.
  assert (Hag : forall x, refs m x -> dget (mkview N ch) x = dget K x).
  { intros x Hx. destruct (Hp x Hx) as (co & HK & i & Hi & Hn & _).
    rewrite dget_mkview, Hi, HK. cbn [option_map]. f_equal.
    pose proof (Hv i (nth_singleton_lt _ _ _ Hn)) as Hin. rewrite Hn in Hin. destruct Hin as [E|[]]. congruence. }
  exact (RecM_agree c X K _ m R Hag).
Qed.

Lemma Anch_mono : forall c X P N B B', (B <= B')%nat -> Anch c X P N B -> Anch c X P N B'.
Proof.
  intros c X P N B B' H (K & m & R & Hp). exists K, m. split; [exact R|].
  intros x Hx. destruct (Hp x Hx) as (co & HK & i & Hi & Hn & Hb). exists co. split; [exact HK|].
  exists i. repeat split; try assumption. lia.
Qed.

(* every version of the name space is anchored to one of the two collections *)
Definition Safe (c : cfg) (X Y : store) (P : pfs) (B : nat) : Prop :=
  forall N, In N (p_ns P) -> Anch c X P N B \/ Anch c Y P N B.

Theorem Safe_start : forall c X Y P B l, wf_cfg c = true -> WF P -> Safe c X Y P B ->
  docs_ok c X -> size X <= c_capacity c -> docs_ok c Y -> size Y <= c_capacity c ->
  exists r, start c (pview P l) = SOk r /\ (st_store r = X \/ st_store r = Y).
Proof.
  intros c X Y P B l Hwf W HS DX SX DY SY. rewrite pview_mkview.
  set (N := nth_clamped (p_ns P) (l_dir l) []).
  set (ch := fun i => nth_clamped (nth i (p_inodes P) []) (l_data l i) FEmpty).
  assert (HN : In N (p_ns P)) by (apply nth_clamped_in; apply (wf_ns W)).
  pose proof (clamped_valid P l W : valid_ch P ch) as Hv.
  destruct (HS N HN) as [A|A].
  - destruct (Rec_start c X _ Hwf (Anch_view _ _ _ _ _ _ A Hv) DX SX) as (r & E & Es). exists r. auto.
  - destruct (Rec_start c Y _ Hwf (Anch_view _ _ _ _ _ _ A Hv) DY SY) as (r & E & Es). exists r. auto.
Qed.

(* the current version is anchored to the kill directory when everything that directory's manifest
   references is synced *)
Definition synced (P : pfs) (B : nat) (x : name) : Prop :=
  exists i co, ns_get (cur_ns P) x = Some i /\ nth i (p_inodes P) [] = [co] /\ (i < B)%nat.

Lemma Anch_cur : forall c X P d m B, Sim P d -> RecM c X d m ->
  (forall x, refs m x -> synced P B x) -> Anch c X P (cur_ns P) B.
Proof.
  intros c X P d m B S R H. exists d, m. split; [exact R|].
  intros x Hx. destruct (H x Hx) as (i & co & Hi & Hn & Hb). exists co. split.
  - rewrite (S x), Hi. cbn [option_map]. unfold cur_content, last_or. rewrite Hn. reflexivity.
  - exists i. auto.
Qed.

Lemma Rec_RecM : forall c X d m, Rec c X d -> dget d NManifest = Some (FManifest m) -> RecM c X d m.
Proof.
  intros c X d m [m' R] H. pose proof R as (sdocs & sseq & nx & Hm & _). rewrite Hm in H. inversion H; subst. exact R.
Qed.

(* the inode that receives a new content version *)
Definition written (P : pfs) (e : eff) : option nat :=
  match e with
  | ECreate g true | EAppend g _ | ETrunc g _ | EWriteFile g _ => ns_get (cur_ns P) g
  | _ => None
  end.

(* What one effect does to the bookkeeping: nothing; a new content version of the inode it writes; the
   collapse of an inode to its last version; a new inode, bound in a new version of the name space; a new
   version of the name space; the collapse of the name space to its last version. *)
Inductive pact (P : pfs) (e : eff) : pfs -> Prop :=
| PA_id : pact P e P
| PA_write i c : written P e = Some i -> pact P e (mkPfs (upd_nth (p_inodes P) i (fun v => v ++ [c])) (p_ns P))
| PA_sync i : pact P e (mkPfs (upd_nth (p_inodes P) i (fun v => [last_or v FEmpty])) (p_ns P))
| PA_new f c : pact P e (mkPfs (p_inodes P ++ [[c]]) (p_ns P ++ [ns_set (cur_ns P) f (length (p_inodes P))]))
| PA_ns N' : pact P e (push_ns P N')
| PA_dirsync : pact P e (mkPfs (p_inodes P) [cur_ns P]).

Lemma papply_pact : forall P e, pact P e (papply P e).
Proof.
  intros P e. destruct e as [f [|]|f b|f n|f|f|a b|f| |f co]; cbn [papply];
    try (destruct (ns_get (cur_ns P) _) eqn:E); constructor; exact E.
Qed.

Lemma low_stable : forall P e B i co, WF P ->
  (forall j, written P e = Some j -> (B <= j)%nat) ->
  (i < B)%nat -> nth i (p_inodes P) [] = [co] -> nth i (p_inodes (papply P e)) [] = [co].
Proof.
  intros P e B i co W Hw Hi Hn. pose proof (nth_singleton_lt _ _ _ Hn) as Hlen.
  destruct (papply_pact P e) as [|j c Hj|j|f c|N'|]; cbn [p_inodes push_ns]; try exact Hn.
  - rewrite nth_upd_other by (specialize (Hw j Hj); lia). exact Hn.
  - destruct (Nat.eq_dec j i) as [->|Nj]; [rewrite nth_upd_same by exact Hlen; rewrite Hn; reflexivity|].
    rewrite nth_upd_other by exact Nj. exact Hn.
  - rewrite app_nth1 by exact Hlen. exact Hn.
Qed.

Lemma ns_versions_step : forall P e N, p_ns P <> [] -> In N (p_ns (papply P e)) ->
  In N (p_ns P) \/ N = cur_ns (papply P e).
Proof.
  intros P e N Hne H.
  destruct (papply_pact P e) as [|j c Hj|j|f c|N'|]; cbn [p_ns push_ns] in H; try (left; exact H).
  - unfold cur_ns, last_or. cbn [p_ns]. rewrite last_last. apply in_app_or in H. destruct H as [H|[<-|[]]]; auto.
  - rewrite cur_ns_push. apply in_app_or in H. destruct H as [H|[<-|[]]]; auto.
  - left. destruct H as [<-|[]]. apply cur_ns_in. exact Hne.
Qed.

Lemma anch_keep : forall c X P N B e, WF P ->
  (forall j, written P e = Some j -> (B <= j)%nat) -> Anch c X P N B -> Anch c X (papply P e) N B.
Proof.
  intros c X P N B e W Hw (K & m & R & Hp). exists K, m. split; [exact R|].
  intros x Hx. destruct (Hp x Hx) as (co & HK & i & Hi & Hn & Hb). exists co. split; [exact HK|].
  exists i. split; [exact Hi|]. split; [|exact Hb]. eapply low_stable; eassumption.
Qed.

Theorem safe_step : forall c X Y P B e, WF P -> Safe c X Y P B ->
  (forall j, written P e = Some j -> (B <= j)%nat) ->
  (In (cur_ns (papply P e)) (p_ns P) \/
   Anch c X (papply P e) (cur_ns (papply P e)) B \/ Anch c Y (papply P e) (cur_ns (papply P e)) B) ->
  Safe c X Y (papply P e) B.
Proof.
  intros c X Y P B e W HS Hw Hnew N HN.
  assert (Hold : forall N0, In N0 (p_ns P) -> Anch c X (papply P e) N0 B \/ Anch c Y (papply P e) N0 B).
  { intros N0 H0. destruct (HS N0 H0) as [A|A]; [left|right]; apply anch_keep; assumption. }
  destruct (ns_versions_step P e N (wf_ns W) HN) as [H| ->]; [apply Hold; exact H|].
  destruct Hnew as [H|H]; [apply Hold; exact H|exact H].
Qed.

Lemma Safe_mono : forall c X Y P B B', (B <= B')%nat -> Safe c X Y P B -> Safe c X Y P B'.
Proof. intros c X Y P B B' H S N HN. destruct (S N HN) as [A|A]; [left|right]; eapply Anch_mono; eassumption. Qed.

Lemma cur_ns_papply : forall P e, cur_ns (papply P e) =
  match e with
  | ECreate f _ | EWriteFile f _ =>
      match ns_get (cur_ns P) f with Some _ => cur_ns P | None => ns_set (cur_ns P) f (length (p_inodes P)) end
  | ERename a b =>
      match ns_get (cur_ns P) a with Some i => ns_set (ns_remove (cur_ns P) a) b i | None => cur_ns P end
  | EUnlink f => match ns_get (cur_ns P) f with Some _ => ns_remove (cur_ns P) f | None => cur_ns P end
  | _ => cur_ns P
  end.
Proof.
  intros P e. destruct e as [f [|]|f b|f n|f|f|a b|f| |f co]; cbn [papply];
    try (destruct (ns_get (cur_ns P) _)); rewrite ?cur_ns_push; try reflexivity;
    unfold cur_ns at 1, last_or; cbn [p_ns]; apply last_last.
Qed.

Lemma cur_lookup_other : forall P e x, ~ In x (touches e) ->
  ns_get (cur_ns (papply P e)) x = ns_get (cur_ns P) x.
Proof.
  intros P e x H. rewrite cur_ns_papply.
  destruct e as [f tr|f b|f n|f|f|a b|f| |f co']; cbn [touches] in H; try reflexivity;
    destruct (ns_get (cur_ns P) _); try reflexivity;
    apply not_in_cons in H; destruct H as [N1 H]; try (apply not_in_cons in H; destruct H as [N2 _]).
  - apply ns_get_set_other. exact N1.
  - rewrite ns_get_set_other by exact N2. apply ns_get_remove_other. exact N1.
  - apply ns_get_remove_other. exact N1.
  - apply ns_get_set_other. exact N1.
Qed.

Lemma synced_keep : forall P e B x, WF P -> ~ In x (touches e) ->
  (forall j, written P e = Some j -> (B <= j)%nat) -> synced P B x -> synced (papply P e) B x.
Proof.
  intros P e B x W Hx Hw (i & co & Hi & Hn & Hb). exists i, co.
  split; [rewrite cur_lookup_other by exact Hx; exact Hi|]. split; [|exact Hb]. eapply low_stable; eassumption.
Qed.

Lemma inodes_length_mono : forall P e, (length (p_inodes P) <= length (p_inodes (papply P e)))%nat.
Proof.
  intros P e. destruct (papply_pact P e); cbn [p_inodes push_ns]; rewrite ?upd_nth_length, ?app_length; cbn [length]; lia.
Qed.

(* files that did not exist at the start of a block live in inodes created during the block *)
Definition Young (P : pfs) (A : name -> Prop) (L0 : nat) : Prop :=
  forall g j, ns_get (cur_ns P) g = Some j -> A g -> (L0 <= j)%nat.

Lemma young_step : forall P e A L0, Young P A L0 -> (L0 <= length (p_inodes P))%nat ->
  (forall a b, e = ERename a b -> A b -> A a) -> Young (papply P e) A L0.
Proof.
  intros P e A L0 HY HL Hr g j Hg HA. rewrite cur_ns_papply in Hg.
  assert (Hnew : forall f, ns_get (ns_set (cur_ns P) f (length (p_inodes P))) g = Some j -> (L0 <= j)%nat).
  { intros f H. destruct (ns_get_set_inv _ _ _ _ _ H) as [[_ ->]|[_ H']]; [lia|eapply HY; eassumption]. }
  destruct e as [f tr|f b|f n|f|f|a b|f| |f co']; try (eapply HY; eassumption);
    destruct (ns_get (cur_ns P) _) as [i|] eqn:Ea; try (eapply HY; eassumption); try (eapply Hnew; exact Hg).
  - destruct (ns_get_set_inv _ _ _ _ _ Hg) as [[-> ->]|[_ Hg']].
    + eapply HY; [exact Ea|]. eapply Hr; [reflexivity|exact HA].
    + apply ns_get_remove_inv in Hg'. exact (HY g j (proj2 Hg') HA).
  - apply ns_get_remove_inv in Hg. exact (HY g j (proj2 Hg) HA).
Qed.

Record Mid (P : pfs) (d : dir) (m : manifest) (B : nat) : Prop := {
  mid_wf : WF P;
  mid_sim : Sim P d;
  mid_man : dget d NManifest = Some (FManifest m);
  mid_refs : forall x, refs m x -> synced P B x;
  mid_B : (B <= length (p_inodes P))%nat
}.

Arguments mid_wf {P d m B}.
Arguments mid_sim {P d m B}.
Arguments mid_man {P d m B}.
Arguments mid_refs {P d m B}.
Arguments mid_B {P d m B}.

Definition written_name (e : eff) : option name :=
  match e with
  | ECreate g true | EAppend g _ | ETrunc g _ | EWriteFile g _ => Some g
  | _ => None
  end.

Lemma written_spec : forall P e j, written P e = Some j ->
  exists g, written_name e = Some g /\ ns_get (cur_ns P) g = Some j.
Proof.
  intros P e j H. destruct e as [f tr|f b|f n|f|f|a b|f| |f co']; cbn [written written_name] in *;
    try discriminate; try (eexists; split; [reflexivity|exact H]).
  destruct tr; [eexists; split; [reflexivity|exact H]|discriminate].
Qed.

(* names whose inode a block writes to, or that it renames away *)
Definition wnames (e : eff) : list name :=
  match e with
  | ERename a _ => [a]
  | _ => match written_name e with Some g => [g] | None => [] end
  end.
Definition writes (E : list eff) : list name := flat_map wnames E.

Lemma writes_touched : forall E x, In x (writes E) -> In x (touched E).
Proof.
  intros E x H. apply in_flat_map in H. destruct H as (e & He & Hx). apply in_flat_map. exists e.
  split; [exact He|]. destruct e as [f [|]|f b|f n|f|f|a b|f| |f co]; cbn in Hx |- *; tauto.
Qed.

(* a block of effects that publishes no manifest, touches nothing the manifest references and writes
   only to files that did not exist when the block started *)
Theorem walk_quiet : forall c X Y (A : name -> Prop) L0 E P d m B,
  Mid P d m B -> Safe c X Y P B -> Young P A L0 -> (B <= L0)%nat -> (L0 <= length (p_inodes P))%nat ->
  (forall x, In x (touched E) -> ~ refs m x) ->
  (forall x, In x (writes E) -> A x) ->
  (forall k, (k <= length E)%nat -> Rec c X (apply_effs d (firstn k E))) ->
  forall k, (k <= length E)%nat ->
    Safe c X Y (papply_all P (firstn k E)) B /\ Mid (papply_all P (firstn k E)) (apply_effs d (firstn k E)) m B /\
    Young (papply_all P (firstn k E)) A L0 /\
    (forall x, ~ In x (touched E) -> synced P L0 x -> synced (papply_all P (firstn k E)) L0 x).
Proof.
  intros c X Y A L0 E. induction E as [|e r IH]; intros P d m B HM HS HY HB HL H1 H2 H4 k Hk.
  - rewrite firstn_nil. cbn. auto.
  - destruct k as [|k]; [cbn; auto|]. cbn [firstn].
    change (papply_all P (e :: firstn k r)) with (papply_all (papply P e) (firstn k r)).
    change (apply_effs d (e :: firstn k r)) with (apply_effs (apply_eff d e) (firstn k r)).
    change (touched (e :: r)) with (touches e ++ touched r) in *. change (writes (e :: r)) with (wnames e ++ writes r) in H2.
    assert (H1e : forall x, In x (touches e) -> ~ refs m x) by (intros x Hx; apply H1; apply in_or_app; auto).
    assert (H2e : forall g, written_name e = Some g -> A g).
    { intros g Hg. apply H2. apply in_or_app. left. unfold wnames. rewrite Hg. destruct e; try (left; reflexivity). discriminate. }
    destruct HM as [W Sd Hm Hrf HBl].
    destruct (sim_step P d e W Sd) as [W' Sd'].
    assert (Hw0 : forall j, written P e = Some j -> (L0 <= j)%nat).
    { intros j Hj. destruct (written_spec P e j Hj) as (g & Hg & Hl). exact (HY g j Hl (H2e g Hg)). }
    assert (Hw : forall j, written P e = Some j -> (B <= j)%nat) by (intros j Hj; pose proof (Hw0 j Hj); lia).
    assert (Hm' : dget (apply_eff d e) NManifest = Some (FManifest m)).
    { rewrite apply_eff_other; [exact Hm|]. intro Hin. apply (H1e NManifest Hin). left. reflexivity. }
    assert (Hrf' : forall x, refs m x -> synced (papply P e) B x).
    { intros x Hx. apply synced_keep; [exact W| |exact Hw|apply Hrf; exact Hx]. intro Hin. exact (H1e x Hin Hx). }
    assert (HM' : Mid (papply P e) (apply_eff d e) m B).
    { constructor; try assumption. pose proof (inodes_length_mono P e). lia. }
    assert (HS' : Safe c X Y (papply P e) B).
    { apply safe_step; [exact W|exact HS|exact Hw|]. right. left.
      apply (Anch_cur c X _ (apply_eff d e) m B Sd'); [|exact Hrf'].
      apply Rec_RecM; [|exact Hm']. exact (H4 1%nat ltac:(cbn; lia)). }
    assert (HY' : Young (papply P e) A L0).
    { apply young_step; [exact HY|exact HL|]. intros a b -> _. apply H2. left. reflexivity. }
    destruct (IH (papply P e) (apply_eff d e) m B HM' HS' HY' HB) with (k := k) as (R1 & R2 & R3 & R4).
    + pose proof (inodes_length_mono P e). lia.
    + intros x Hx. apply H1. apply in_or_app. right. exact Hx.
    + intros x Hx. apply H2. apply in_or_app. right. exact Hx.
    + intros k0 Hk0. exact (H4 (S k0) ltac:(cbn; lia)).
    + cbn in Hk. lia.
    + split; [exact R1|]. split; [exact R2|]. split; [exact R3|].
      intros x Hx Hs. apply R4; [intro Hin; apply Hx; apply in_or_app; right; exact Hin|].
      apply synced_keep; [exact W|intro Hin; apply Hx; apply in_or_app; left; exact Hin|exact Hw0|exact Hs].
Qed.

Lemma synced_after_fsync : forall P f j, WF P -> ns_get (cur_ns P) f = Some j ->
  synced (papply P (EFsync f)) (length (p_inodes (papply P (EFsync f)))) f /\
  nth j (p_inodes (papply P (EFsync f))) [] = [cur_content P j].
Proof.
  intros P f j W Hf. cbn [papply]. rewrite Hf.
  pose proof (wf_cur_bound P f j W Hf) as Hj.
  assert (E : nth j (upd_nth (p_inodes P) j (fun v => [last_or v FEmpty])) [] = [cur_content P j])
    by (rewrite nth_upd_same by exact Hj; reflexivity).
  split; [|exact E]. exists j, (cur_content P j). cbn [p_inodes]. rewrite upd_nth_length.
  split; [exact Hf|]. split; [exact E|exact Hj].
Qed.

Lemma fsynced_flat : forall P d f c0, WF P -> Sim P d -> dget d f = Some c0 ->
  exists j, ns_get (cur_ns (papply P (EFsync f))) f = Some j /\ nth j (p_inodes (papply P (EFsync f))) [] = [c0].
Proof.
  intros P d f c0 W S Hd. pose proof (S f) as Sf. rewrite Hd in Sf.
  destruct (ns_get (cur_ns P) f) as [j|] eqn:Ej; [|discriminate]. cbn [option_map] in Sf. injection Sf as ->.
  destruct (synced_after_fsync P f j W Ej) as [_ Hflat]. exists j. split; [|exact Hflat].
  rewrite cur_lookup_other by (cbn; tauto). exact Ej.
Qed.

(* write to a temp file, fsync it, rename it: the inode the destination is then bound to holds the one version co *)
Lemma atomic_write_flat : forall P d tmp dst co, WF P -> Sim P d -> dget d tmp = None ->
  let P3 := papply_all P (firstn 3 (atomic_write tmp dst co)) in
  let P4 := papply P3 (ERename tmp dst) in
  exists j, ns_get (cur_ns P3) tmp = Some j /\ nth j (p_inodes P3) [] = [co] /\
            cur_ns P4 = ns_set (ns_remove (cur_ns P3) tmp) dst j /\ p_inodes P4 = p_inodes P3.
Proof.
  intros P d tmp dst co W S Ht P3 P4.
  destruct (sim_steps (firstn 2 (atomic_write tmp dst co)) P d W S) as [W2 S2].
  assert (Hd2 : dget (apply_effs d (firstn 2 (atomic_write tmp dst co))) tmp = Some co).
  { unfold atomic_write, apply_effs. cbn [firstn fold_left apply_eff]. rewrite Ht. dsimp. reflexivity. }
  destruct (fsynced_flat _ _ tmp _ W2 S2 Hd2) as (j & Ej & Hflat). exists j.
  change (papply (papply_all P (firstn 2 (atomic_write tmp dst co))) (EFsync tmp)) with P3 in Ej, Hflat.
  split; [exact Ej|]. split; [exact Hflat|]. unfold P4. cbn [papply]. rewrite Ej. split; [apply cur_ns_push|reflexivity].
Qed.

Definition SafeE (c : cfg) (X Y : store) (P : pfs) : Prop := exists B, Safe c X Y P B.

Lemma crash_false : forall d effs k, crash_kill d effs k false = apply_effs d (firstn k effs).
Proof. reflexivity. Qed.

Lemma refs_kind : forall c X d m x, RecM c X d m -> refs m x ->
  x = NManifest \/ is_wal x \/ (exists k, x = NSnap k).
Proof. intros c X d m x R Hx. exact (proj1 (RecM_refs _ _ _ _ x R Hx)). Qed.

Lemma young_from_sim : forall P d, Sim P d -> Young P (fun g => dget d g = None) (length (p_inodes P)).
Proof.
  intros P d S g j Hg Hn. rewrite (S g), Hg in Hn. discriminate.
Qed.

Lemma synced_mono : forall P B B' x, (B <= B')%nat -> synced P B x -> synced P B' x.
Proof. intros P B B' x H (i & co & A & C & D). exists i, co. repeat split; try assumption. lia. Qed.

Lemma papply_all_app : forall P a b, papply_all P (a ++ b) = papply_all (papply_all P a) b.
Proof. intros. unfold papply_all. apply fold_left_app. Qed.

Lemma papply_all_length_mono : forall es P, (length (p_inodes P) <= length (p_inodes (papply_all P es)))%nat.
Proof.
  induction es as [|e r IH]; intros P; [cbn; lia|].
  change (papply_all P (e :: r)) with (papply_all (papply P e) r).
  pose proof (inodes_length_mono P e). specialize (IH (papply P e)). lia.
Qed.

(* running block E from (P, d): every prefix is safe, and the end state is again a Mid state *)
Definition BlockOK (c : cfg) (X Y : store) (P : pfs) (d : dir) (E : list eff) : Prop :=
  (forall k, (k <= length E)%nat -> SafeE c X Y (papply_all P (firstn k E))) /\
  (exists m' B', Mid (papply_all P E) (apply_effs d E) m' B' /\ Safe c X Y (papply_all P E) B') /\
  dget (apply_effs d E) NManifestTmp = None.

(* a state in which a block may start: the last two conjuncts of BlockOK *)
Definition Stable (c : cfg) (X Y : store) (P : pfs) (d : dir) : Prop :=
  (exists m B, Mid P d m B /\ Safe c X Y P B) /\ dget d NManifestTmp = None.

Lemma Stable_intro : forall c X Y P d m B, Mid P d m B -> Safe c X Y P B -> dget d NManifestTmp = None ->
  Stable c X Y P d.
Proof. intros c X Y P d m B HM HS HT. split; [exists m, B; split; assumption|exact HT]. Qed.
Arguments Stable_intro {c X Y P d m B}.

Lemma BlockOK_app : forall c X Y P d E1 E2,
  BlockOK c X Y P d E1 ->
  (Stable c X Y (papply_all P E1) (apply_effs d E1) -> BlockOK c X Y (papply_all P E1) (apply_effs d E1) E2) ->
  BlockOK c X Y P d (E1 ++ E2).
Proof.
  intros c X Y P d E1 E2 [A1 St1] H2. destruct (H2 St1) as [A2 St2]. split.
  - intros k Hk. destruct (Nat.le_gt_cases k (length E1)) as [L|G].
    + rewrite firstn_app_le by exact L. apply A1. exact L.
    + rewrite firstn_app_ge by lia. rewrite papply_all_app. apply A2. rewrite app_length in Hk. lia.
  - rewrite papply_all_app, apply_effs_app. exact St2.
Qed.

Lemma BlockOK_nil : forall c X Y P d, Stable c X Y P d -> BlockOK c X Y P d [].
Proof.
  intros c X Y P d St. split; [|exact St]. intros k _. rewrite firstn_nil.
  destruct St as [(m & B & _ & HS) _]. exists B. exact HS.
Qed.
Arguments BlockOK_nil {c X Y P d}.

Lemma dirsync_keeps : forall c X Y P d m B, Mid P d m B -> Safe c X Y P B ->
  Mid (papply P EFsyncDir) d m B /\ Safe c X Y (papply P EFsyncDir) B.
Proof.
  intros c X Y P d m B [W S Hm Hr HB] HS. destruct (sim_step P d EFsyncDir W S) as [W' S']. split.
  - constructor; [exact W'|exact S'|exact Hm|exact Hr|exact HB].
  - apply safe_step; [exact W|exact HS|intros j H; discriminate|]. left.
    change (In (cur_ns P) (p_ns P)). apply cur_ns_in. exact (wf_ns W).
Qed.

Theorem block_manifest : forall c X Y P d m',
  Stable c X Y P d -> AllRec c X d (save_manifest_effs m') ->
  (forall x, refs m' x -> x <> NManifest -> synced P (length (p_inodes P)) x /\ x <> NManifestTmp) ->
  BlockOK c X Y P d (save_manifest_effs m').
Proof.
  intros c X Y P d m' [(m & B & HM & HS) Htmp] HA Hnew.
  set (E := save_manifest_effs m'). set (L := length (p_inodes P)).
  assert (HRk : forall k, (k <= 5)%nat -> Rec c X (apply_effs d (firstn k E)))
    by (intros k Hk; rewrite <- crash_false; apply HA; exact Hk).
  pose proof (Rec_RecM c X d m (HRk 0%nat ltac:(lia)) (mid_man HM)) as RM0.
  assert (Hnt : forall x, refs m x -> x <> NManifestTmp).
  { intros x Hx. destruct (refs_kind _ _ _ _ _ RM0 Hx) as [->|[[j ->]|[j ->]]]; discriminate. }
  (* the three effects that only touch MANIFEST.tmp *)
  assert (Q : forall k, (k <= 3)%nat ->
            Safe c X Y (papply_all P (firstn k E)) B /\ Mid (papply_all P (firstn k E)) (apply_effs d (firstn k E)) m B /\
            (forall x, x <> NManifestTmp -> synced P L x -> synced (papply_all P (firstn k E)) L x)).
  { intros k Hk.
    destruct (walk_quiet c X Y (fun g => dget d g = None) L (firstn 3 E) P d m B HM HS
                (young_from_sim P d (mid_sim HM)) (mid_B HM) (le_n _)) with (k := k) as (Q1 & Q2 & _ & Q4).
    - intros x Hx Hr. cbn in Hx. destruct Hx as [<-|[<-|[]]]; exact (Hnt _ Hr eq_refl).
    - intros x Hx. cbn in Hx. destruct Hx as [<-|[<-|[]]]; exact Htmp.
    - intros k0 Hk0. cbn [length firstn E save_manifest_effs] in Hk0.
      replace (firstn k0 (firstn 3 E)) with (firstn k0 E); [apply HRk; lia|].
      rewrite firstn_firstn. f_equal. lia.
    - cbn. exact Hk.
    - replace (firstn k (firstn 3 E)) with (firstn k E) in * by (rewrite firstn_firstn; f_equal; lia).
      split; [exact Q1|]. split; [exact Q2|]. intros x Hx Hs. apply Q4; [|exact Hs].
      intro Hin. cbn in Hin. destruct Hin as [E0|[E0|[]]]; apply Hx; symmetry; exact E0. }
  destruct (Q 3%nat ltac:(lia)) as (S3 & M3 & K3).
  (* the rename publishes m' *)
  destruct (atomic_write_flat P d NManifestTmp NManifest (FManifest m') (mid_wf HM) (mid_sim HM) Htmp)
    as (j & Ej3 & Hflat & Hcur4 & Hino4).
  change (papply_all P (firstn 3 (atomic_write NManifestTmp NManifest (FManifest m')))) with (papply_all P (firstn 3 E)) in *.
  set (P3 := papply_all P (firstn 3 E)) in *. set (P4 := papply P3 (ERename NManifestTmp NManifest)) in *.
  set (D4 := apply_effs d (firstn 4 E)).
  destruct (sim_step P3 (apply_effs d (firstn 3 E)) (ERename NManifestTmp NManifest)
              (mid_wf M3) (mid_sim M3)) as [W4 S4].
  fold P4 in W4, S4. change (apply_eff (apply_effs d (firstn 3 E)) (ERename NManifestTmp NManifest)) with D4 in S4.
  set (B' := length (p_inodes P4)).
  assert (Hm4 : dget D4 NManifest = Some (FManifest m')) by apply save_manifest_get.
  assert (HL : (L <= B')%nat) by (unfold B'; rewrite Hino4; apply papply_all_length_mono).
  assert (Hsy4 : forall x, refs m' x -> synced P4 B' x).
  { intros x Hx. destruct (name_eqb_spec x NManifest) as [->|Nm].
    - exists j, (FManifest m'). rewrite Hcur4, ns_get_set_same, Hino4. split; [reflexivity|]. split; [exact Hflat|].
      unfold B'. rewrite Hino4. eapply nth_singleton_lt. exact Hflat.
    - destruct (Hnew x Hx Nm) as [Hs Nt]. destruct (K3 x Nt Hs) as (i & co & Hi & Hn & Hb).
      exists i, co. rewrite Hcur4, ns_get_set_other, ns_get_remove_other by assumption. rewrite Hino4.
      split; [exact Hi|]. split; [exact Hn|]. lia. }
  assert (RM4 : RecM c X D4 m') by (apply Rec_RecM; [apply (HRk 4%nat); lia|exact Hm4]).
  assert (HB3 : (B <= B')%nat) by (pose proof (mid_B HM); fold L in H; lia).
  assert (S4' : Safe c X Y P4 B').
  { apply safe_step; [exact (mid_wf M3)|eapply Safe_mono; [exact HB3|exact S3]|intros j0 H0; discriminate|].
    right. left. exact (Anch_cur c X P4 D4 m' B' S4 RM4 Hsy4). }
  assert (M4 : Mid P4 D4 m' B') by (constructor; [exact W4|exact S4|exact Hm4|exact Hsy4|apply le_n]).
  destruct (dirsync_keeps c X Y P4 D4 m' B' M4 S4') as [M5 S5].
  split; [|split].
  - intros k Hk. cbn [length E save_manifest_effs] in Hk. assert (k <= 3 \/ k = 4 \/ k = 5)%nat as [H3|[->| ->]] by lia.
    + exists B. apply (Q k H3).
    + exists B'. exact S4'.
    + exists B'. exact S5.
  - exists m', B'. exact (conj M5 S5).
  - unfold E, save_manifest_effs, apply_effs. cbn [fold_left apply_eff]. rewrite Htmp. dsimp. cbn. dsimp. reflexivity.
Qed.

Definition newseg_effs (d : dir) (m : manifest) : list eff :=
  new_wal_effs (NWal (fresh_id d)) ++
  save_manifest_effs (mkManifest (m_snapshot m) (m_snapshot_seq m) (m_segments m ++ [NWal (fresh_id d)])).

Lemma mid_manifest_eq : forall P d m m' B, Mid P d m B -> dget d NManifest = Some (FManifest m') -> m = m'.
Proof. intros P d m m' B HM H. rewrite (mid_man HM) in H. inversion H. reflexivity. Qed.

Lemma Stable_synced : forall c X Y P d m0, Stable c X Y P d -> dget d NManifest = Some (FManifest m0) ->
  forall x, refs m0 x -> synced P (length (p_inodes P)) x.
Proof.
  intros c X Y P d m0 [(m & B & HM & _) _] Hm x Hx. rewrite <- (mid_manifest_eq _ _ _ _ _ HM Hm) in Hx.
  exact (synced_mono _ _ _ _ (mid_B HM) (mid_refs HM x Hx)).
Qed.
Arguments Stable_synced {c X Y P d m0}.

Lemma block_quiet : forall c X Y E P d m,
  Stable c X Y P d -> dget d NManifest = Some (FManifest m) ->
  (forall x, In x (touched E) -> ~ refs m x /\ x <> NManifestTmp) ->
  (forall x, In x (writes E) -> dget d x = None) ->
  AllRec c X d E ->
  BlockOK c X Y P d E /\
  (forall x, ~ In x (touched E) -> synced P (length (p_inodes P)) x ->
             synced (papply_all P E) (length (p_inodes P)) x).
Proof.
  intros c X Y E P d m [(m0 & B & HM & HS) HT] Hm H1 H2 HA. rewrite (mid_manifest_eq _ _ _ _ _ HM Hm) in HM.
  pose proof (walk_quiet c X Y (fun g => dget d g = None) (length (p_inodes P)) E P d m B HM HS
      (young_from_sim P d (mid_sim HM)) (mid_B HM) (le_n _)
      (fun x Hx => proj1 (H1 x Hx)) H2
      (fun k Hk => eq_ind _ (Rec c X) (HA k false Hk) _ (crash_false d E k))) as W.
  split; [split; [|split]|].
  - intros k Hk. exists B. apply (W k Hk).
  - destruct (W (length E) (le_n _)) as (Q1 & Q2 & _). rewrite firstn_all in Q1, Q2.
    exists m, B. split; assumption.
  - rewrite apply_effs_other; [exact HT|]. intro Hin. exact (proj2 (H1 _ Hin) eq_refl).
  - destruct (W (length E) (le_n _)) as (_ & _ & _ & Q4). rewrite firstn_all in Q4. exact Q4.
Qed.

(* ... in particular one that touches only names the directory does not have (CrashProofs.AllRec_fresh) *)
Lemma block_fresh : forall c X Y E P d, Stable c X Y P d ->
  (forall x, In x (touched E) -> dget d x = None /\ x <> NManifestTmp) -> AllRec c X d E ->
  BlockOK c X Y P d E /\
  (forall x, ~ In x (touched E) -> synced P (length (p_inodes P)) x ->
             synced (papply_all P E) (length (p_inodes P)) x).
Proof.
  intros c X Y E P d St H HA. pose proof St as [(m & B & HM & _) _].
  pose proof (Rec_RecM c X d m (HA 0%nat false (Nat.le_0_l _)) (mid_man HM)) as RM0.
  apply (block_quiet c X Y E P d m St (mid_man HM)); [| |exact HA].
  - intros x Hx. destruct (H x Hx) as [Hn Nt]. split; [|exact Nt]. intro Hr. exact (proj2 (RecM_refs _ _ _ _ _ RM0 Hr) Hn).
  - intros x Hx. exact (proj1 (H x (writes_touched _ _ Hx))).
Qed.

Lemma fsynced_synced : forall P d f c0, WF P -> Sim P d -> dget d f = Some c0 ->
  synced (papply P (EFsync f)) (length (p_inodes (papply P (EFsync f)))) f.
Proof.
  intros P d f c0 W S Hd. pose proof (S f) as Sf. rewrite Hd in Sf.
  destruct (ns_get (cur_ns P) f) as [j|] eqn:Ej; [|discriminate]. exact (proj1 (synced_after_fsync P f j W Ej)).
Qed.

(* rotation and recovery: the fresh segment is created in a quiet block, fdatasynced, and only then listed *)
Lemma block_newseg : forall c X Y P d a nx m,
  InvD c X d a nx -> Stable c X Y P d -> dget d NManifest = Some (FManifest m) ->
  BlockOK c X Y P d (newseg_effs d m).
Proof.
  intros c X Y P d a nx m HI St Hm. unfold newseg_effs. pose proof St as [(m0 & B & HM & _) _].
  set (f := NWal (fresh_id d)). set (m' := mkManifest (m_snapshot m) (m_snapshot_seq m) (m_segments m ++ [f])).
  pose proof (newseg_allrec c X d a nx m HI Hm) as HA. fold f m' in HA.
  destruct (AllRec_app_inv _ _ _ _ _ HA) as [A1 A2].
  assert (Hf : dget d f = None) by (apply fresh_none; reflexivity).
  destruct (block_fresh c X Y (new_wal_effs f) P d St) as [BK1 _].
  - intros x Hx. rewrite (touched_new_wal _ _ Hx). split; [exact Hf|discriminate].
  - exact A1.
  - apply BlockOK_app; [exact BK1|]. intros St1.
    apply (block_manifest c X Y _ _ m' St1 A2). intros x Hx Nm. split.
    + assert (Hold : forall y, refs m y -> synced (papply_all P (new_wal_effs f)) (length (p_inodes (papply_all P (new_wal_effs f)))) y).
      { apply (Stable_synced (m0 := m) St1). rewrite new_wal_other; [exact Hm|exact Hf|discriminate]. }
      destruct Hx as [E0|[Hx|Hx]]; [contradiction| |apply Hold; right; right; exact Hx].
      cbn [m_segments m'] in Hx. apply in_app_or in Hx. destruct Hx as [Hx|[<-|[]]]; [apply Hold; right; left; exact Hx|].
      destruct (sim_steps (firstn 2 (new_wal_effs f)) P d (mid_wf HM) (mid_sim HM)) as [W2 S2].
      apply (fsynced_synced _ _ f (FWal [] Clean) W2 S2).
      unfold new_wal_effs, apply_effs. cbn [firstn fold_left apply_eff]. rewrite Hf. dsimp. cbn. dsimp. reflexivity.
    + assert (RM' : RecM c X (apply_effs (apply_effs d (new_wal_effs f)) (save_manifest_effs m')) m')
        by (apply Rec_RecM; [apply AllRec_end; exact A2|apply save_manifest_get]).
      destruct (refs_kind _ _ _ _ _ RM' Hx) as [->|[[i ->]|[i ->]]]; discriminate.
Qed.

(* Snapshot::save: the snapshot file is written and fsynced under its temp name, then renamed *)
Lemma block_snapfile : forall c X Y P d k sn,
  Stable c X Y P d -> dget d (NSnap k) = None -> dget d (NSnapTmp k) = None ->
  AllRec c X d (save_snapshot_effs k sn) ->
  BlockOK c X Y P d (save_snapshot_effs k sn) /\
  (forall x, x <> NSnap k -> x <> NSnapTmp k -> synced P (length (p_inodes P)) x ->
             synced (papply_all P (save_snapshot_effs k sn)) (length (p_inodes P)) x) /\
  synced (papply_all P (save_snapshot_effs k sn)) (length (p_inodes (papply_all P (save_snapshot_effs k sn)))) (NSnap k).
Proof.
  intros c X Y P d k sn St Hs Ht HA. pose proof St as [(m & B & HM & _) _].
  set (E := save_snapshot_effs k sn).
  destruct (block_fresh c X Y E P d St) as [BK Pres].
  - intros x Hx. destruct (touched_save_snapshot _ _ _ Hx) as [->| ->]; (split; [assumption|discriminate]).
  - exact HA.
  - split; [exact BK|]. split.
    + intros x N1 N2 Hx. apply Pres; [|exact Hx]. intro Hin.
      destruct (touched_save_snapshot _ _ _ Hin); contradiction.
    + (* the inode written as snapshot_k.tmp is flat and now bound to snapshot_k.snap *)
      destruct (atomic_write_flat P d (NSnapTmp k) (NSnap k) (FSnap sn) (mid_wf HM) (mid_sim HM) Ht)
        as (j & _ & Hflat & Hcur4 & Hino4).
      set (P4 := papply (papply_all P (firstn 3 (atomic_write (NSnapTmp k) (NSnap k) (FSnap sn)))) (ERename (NSnapTmp k) (NSnap k))) in *.
      change (papply_all P E) with (papply P4 EFsyncDir). exists j, (FSnap sn).
      change (cur_ns (papply P4 EFsyncDir)) with (cur_ns P4). change (p_inodes (papply P4 EFsyncDir)) with (p_inodes P4).
      rewrite Hcur4, Hino4, ns_get_set_same. split; [reflexivity|]. split; [exact Hflat|eapply nth_singleton_lt; exact Hflat].
Qed.

(* saving a manifest that points at the new snapshot and lists segments that are all synced *)
Lemma block_snap_manifest : forall c X Y P d s segs,
  Stable c X Y P d -> AllRec c X d (save_manifest_effs (snap_manifest s segs)) -> (forall x, In x segs -> is_wal x) ->
  (forall x, In x segs \/ x = NSnap (fresh_id (st_disk s)) -> synced P (length (p_inodes P)) x) ->
  BlockOK c X Y P d (save_manifest_effs (snap_manifest s segs)).
Proof.
  intros c X Y P d s segs St HA Hwal Hsy. apply (block_manifest c X Y P d _ St HA).
  intros x [E0|[Hx|Hx]] Nm; [contradiction| |]; cbn [m_segments m_snapshot snap_manifest] in Hx.
  - split; [apply Hsy; left; exact Hx|]. destruct (Hwal _ Hx) as [i ->]. discriminate.
  - inversion Hx; subst x. split; [apply Hsy; right; reflexivity|discriminate].
Qed.

Theorem walk_snapshot : forall c s Y P,
  InvDs c (st_store s) s -> sorted (st_store s) -> docs_ok c (st_store s) ->
  Stable c (st_store s) Y P (st_disk s) ->
  BlockOK c (st_store s) Y P (st_disk s) (snd (create_snapshot c s)).
Proof.
  intros c s Y P H Hso Hdo St.
  destruct (create_snapshot_shape c s H Hso Hdo) as (m & keep & del & Hm & Hlast & C1 & C2 & _ & Cdis & _ & ->).
  destruct (snapshot_blocks c s m keep del H Hso Hdo Hm Hlast C1 C2 Cdis) as (A1 & A2 & A3 & A4).
  pose proof (proj2 (InvD_wal _ _ _ _ _ _ H Hm)) as Hwal.
  cbn [snd]. unfold snap_effs.
  set (d := st_disk s) in *. set (k := fresh_id d) in *. set (sn := snap_of c s) in *.
  set (m1 := snap_manifest s (m_segments m)) in *. set (m2 := snap_manifest s keep) in *.
  set (d1 := apply_effs d (save_snapshot_effs k sn)) in *. set (d2 := apply_effs d1 (save_manifest_effs m1)) in *.
  set (e3 := prune_effs s keep del) in *. set (d4 := apply_effs d2 e3) in *.
  assert (Hk1 : dget d (NSnap k) = None) by (apply fresh_none; reflexivity).
  assert (Hk2 : dget d (NSnapTmp k) = None) by (apply fresh_none; reflexivity).
  destruct (block_snapfile c (st_store s) Y P d k sn St Hk1 Hk2 A1) as (BK1 & Pres1 & Sy1).
  set (P1 := papply_all P (save_snapshot_effs k sn)) in *.
  apply BlockOK_app; [exact BK1|]. fold d1. intros St1.
  assert (Hm1 : dget d1 NManifest = Some (FManifest m)) by (unfold d1; rewrite save_snapshot_other by discriminate; exact Hm).
  assert (BK2 : BlockOK c (st_store s) Y P1 d1 (save_manifest_effs m1)).
  { apply (block_snap_manifest c _ Y P1 d1 s _ St1 A2 Hwal). intros x [Hx| ->]; [|exact Sy1].
    apply (Stable_synced St1 Hm1). right. left. exact Hx. }
  apply BlockOK_app; [exact BK2|]. fold d2. intros St2.
  set (P2 := papply_all P1 (save_manifest_effs m1)) in *.
  assert (Href2 : forall x, In x keep \/ x = NSnap k -> synced P2 (length (p_inodes P2)) x).
  { intros x Hx. apply (Stable_synced (m0 := m1) St2 (save_manifest_get _ _)).
    destruct Hx as [Hx| ->]; [right; left; exact (C1 _ Hx)|right; right; reflexivity]. }
  (* pruned-list save + unlinks, then the final save: by cases on whether anything is deletable *)
  assert (Hwk : forall x, In x keep -> is_wal x) by (intros x Hx; exact (Hwal _ (C1 _ Hx))).
  unfold d4, e3, prune_effs in *. destruct del as [|x0 dr] eqn:Edel.
  - cbn [map app] in *. change (apply_effs d2 []) with d2 in *.
    exact (block_snap_manifest c _ Y _ _ s keep St2 A4 Hwk Href2).
  - rewrite <- Edel in *. set (d3 := apply_effs d2 (save_manifest_effs m2)) in *.
    fold m2 in A3. destruct (AllRec_app_inv _ _ _ _ _ A3) as [A3a A3u]. fold d3 in A3u.
    pose proof (block_snap_manifest c _ Y P2 d2 s keep St2 A3a Hwk Href2) as BK3a.
    assert (Hm3 : dget (apply_effs d3 (map EUnlink del)) NManifest = Some (FManifest m2)).
    { rewrite unlinks_other; [unfold d3; apply save_manifest_get|].
      intro Hin. destruct (Hwal _ (C2 _ Hin)) as [i Ei]. discriminate. }
    apply BlockOK_app.
    + apply BlockOK_app; [exact BK3a|]. fold d3. intros St3.
      apply (block_quiet c (st_store s) Y (map EUnlink del) _ d3 m2 St3 (save_manifest_get _ _)).
      * intros x Hx. apply touched_unlinks in Hx. destruct (Hwal _ (C2 _ Hx)) as [i ->]. split; [|discriminate].
        intros [E0|[Hr|Hr]]; [discriminate|exact (Cdis _ Hx Hr)|discriminate].
      * intros x Hx. apply in_flat_map in Hx. destruct Hx as (e & He & Hx). apply in_map_iff in He.
        destruct He as (y & <- & _). destruct Hx.
      * exact A3u.
    + (* kept segments and the snapshot are still synced after the unlinks *)
      rewrite apply_effs_app. fold d3. intros St4.
      apply (block_snap_manifest c _ Y _ _ s keep St4 A4 Hwk).
      intros x Hx. apply (Stable_synced St4 Hm3).
      destruct Hx as [Hx| ->]; [right; left; exact Hx|right; right; reflexivity].
Qed.

Lemma upd_nth_compose : forall A (l : list A) i f g, upd_nth (upd_nth l i f) i g = upd_nth l i (fun x => g (f x)).
Proof.
  induction l as [|x r IH]; intros i f g; cbn; [reflexivity|]. destruct i; cbn; [reflexivity|]. rewrite IH. reflexivity.
Qed.

Lemma upd_nth_ext : forall A (l : list A) i f g, (forall x, f x = g x) -> upd_nth l i f = upd_nth l i g.
Proof.
  induction l as [|x r IH]; intros i f g H; cbn; [reflexivity|]. destruct i; cbn; [rewrite H; reflexivity|].
  rewrite (IH i f g H). reflexivity.
Qed.

Definition vers (es0 es : list entry) (t : nat) : file := FWal (map Good (es0 ++ firstn t es)) Clean.

(* after k frame appends the inode of the active segment holds the versions 0..k, nothing else changed *)
Lemma append_versions : forall a ia es0 es k P N,
  p_ns P = [N] -> ns_get N a = Some ia -> (ia < length (p_inodes P))%nat ->
  nth ia (p_inodes P) [] = [vers es0 es 0] -> (k <= length es)%nat ->
  papply_all P (firstn k (append_effs a es)) =
  mkPfs (upd_nth (p_inodes P) ia (fun _ => map (vers es0 es) (seq 0 (S k)))) [N].
Proof.
  intros a ia es0 es k P N HN Ha Hia H0. induction k as [|k IH]; intros Hk.
  - cbn [firstn papply_all fold_left seq map]. destruct P as [ino ns]. cbn in *. subst ns. f_equal.
    rewrite <- H0. clear. revert ia. induction ino as [|x r IH]; intros ia; cbn; [reflexivity|].
    destruct ia; cbn; [reflexivity|]. rewrite <- IH. reflexivity.
  - assert (Hk' : (k < length es)%nat) by lia.
    destruct (nth_error es k) as [e|] eqn:Ee; [|apply nth_error_None in Ee; lia].
    assert (Hf : firstn (S k) (append_effs a es) = firstn k (append_effs a es) ++ [EAppend a (BFrame (Good e))]).
    { rewrite !append_effs_firstn, (firstn_S_nth _ es k e Ee). unfold append_effs. rewrite map_app. reflexivity. }
    rewrite Hf, papply_all_app, IH by lia. cbn [papply_all fold_left papply].
    unfold cur_ns at 1, last_or. cbn [p_ns last]. rewrite Ha. cbn [p_inodes p_ns].
    rewrite upd_nth_compose. f_equal. apply upd_nth_ext. intros _.
    rewrite (seq_S (S k) 0), (map_app _ (seq 0 (S k))). cbn [map Nat.add]. f_equal. f_equal.
    unfold cur_content, last_or. cbn [p_inodes]. rewrite nth_upd_same by exact Hia.
    rewrite (seq_S k 0), map_app. cbn [map Nat.add]. rewrite last_last.
    unfold content_after, vers.
    repeat first [rewrite name_eqb_refl | progress cbn [apply_eff dget dset]].
    rewrite (firstn_S_nth _ es k e Ee). rewrite app_assoc, !map_app. reflexivity.
Qed.

(* ... and the fsync leaves the one version that holds them all *)
Lemma append_fsync_versions : forall a ia es0 es P N,
  p_ns P = [N] -> ns_get N a = Some ia -> (ia < length (p_inodes P))%nat ->
  nth ia (p_inodes P) [] = [vers es0 es 0] ->
  papply_all P (append_effs a es ++ [EFsync a]) =
  mkPfs (upd_nth (p_inodes P) ia (fun _ => [vers es0 es (length es)])) [N].
Proof.
  intros a ia es0 es P N HN Ha Hia H0.
  rewrite papply_all_app, <- (firstn_all2 (append_effs a es) (n := length es)) by (rewrite append_effs_length; apply le_n).
  rewrite (append_versions a ia es0 es (length es) P N HN Ha Hia H0 (le_n _)).
  cbn [papply_all fold_left papply]. unfold cur_ns at 1, last_or. cbn [p_ns last]. rewrite Ha. cbn [p_inodes p_ns].
  rewrite upd_nth_compose. f_equal. apply upd_nth_ext. intros _.
  rewrite seq_S, map_app. cbn [map Nat.add]. unfold last_or. rewrite last_last. reflexivity.
Qed.

Theorem walk_append : forall c X P d a nx m B N es,
  InvD c X d a nx -> Mid P d m B -> p_ns P = [N] -> seqs_from nx es -> dims_ok c es ->
  (forall k ch, (k <= length es)%nat -> valid_ch (papply_all P (firstn k (append_effs a es))) ch ->
      exists t, (t <= k)%nat /\ Rec c (fold_left apply_entry (firstn t es) X) (mkview N ch)) /\
  (forall k, (k <= length es)%nat -> p_ns (papply_all P (firstn k (append_effs a es))) = [N]) /\
  exists B', Mid (papply_all P (append_effs a es ++ [EFsync a])) (apply_effs d (append_effs a es ++ [EFsync a])) m B' /\
             Safe c (fold_left apply_entry es X) (fold_left apply_entry es X)
                  (papply_all P (append_effs a es ++ [EFsync a])) B' /\
             p_ns (papply_all P (append_effs a es ++ [EFsync a])) = [N].
Proof.
  intros c X P d a nx m B N es HI HM HN Hsq Hdm.
  assert (Hcur : cur_ns P = N) by (unfold cur_ns, last_or; rewrite HN; reflexivity).
  pose proof HI as (m0 & sdocs & sseq & Hm & [pre Hpre] & Hnd & Hw & Hg & _).
  assert (m0 = m) by (symmetry; eapply mid_manifest_eq; [exact HM|exact Hm]). subst m0.
  assert (Hain : In a (m_segments m)) by (rewrite Hpre; apply in_or_app; right; left; reflexivity).
  assert (Hwa : is_wal a) by (rewrite Forall_forall in Hw; apply Hw; exact Hain).
  destruct (Hg a Hain) as [es0 Hes0].
  destruct (mid_refs HM a (or_intror (or_introl Hain))) as (ia & co & Hia & Hnia & Hiab).
  rewrite Hcur in Hia.
  assert (Hco : co = vers es0 es 0).
  { pose proof (mid_sim HM a) as Sa. rewrite Hes0, Hcur, Hia in Sa. cbn [option_map] in Sa.
    unfold cur_content, last_or in Sa. rewrite Hnia in Sa. cbn in Sa. inversion Sa. unfold vers. cbn [firstn].
    rewrite app_nil_r. reflexivity. }
  subst co.
  assert (Hlen : (ia < length (p_inodes P))%nat) by (eapply nth_singleton_lt; exact Hnia).
  pose proof (fun k => append_versions a ia es0 es k P N HN Hia Hlen Hnia) as HV.
  (* the directory after t complete frames *)
  assert (HDt : forall t, RecM c (fold_left apply_entry (firstn t es) X) (apply_effs d (append_effs a (firstn t es))) m).
  { intros t. pose proof (InvD_append c X d a nx (firstn t es) HI (seqs_from_firstn _ _ t Hsq) (Forall_firstn _ t _ Hdm)) as HIt.
    rewrite apply_effs_app, fsync_effs_nop in HIt. apply Rec_RecM; [exact (InvD_Rec _ _ _ _ _ HIt)|].
    rewrite append_other by (destruct Hwa as [i ->]; discriminate). exact Hm. }
  (* other referenced names keep their single version *)
  assert (Hoth : forall x, refs m x -> x <> a ->
            exists i co, ns_get N x = Some i /\ i <> ia /\ nth i (p_inodes P) [] = [co] /\ (i < B)%nat /\ dget d x = Some co).
  { intros x Hx Nx. destruct (mid_refs HM x Hx) as (i & co & Hi & Hn & Hb). rewrite Hcur in Hi.
    exists i, co. split; [exact Hi|]. split.
    - intro E. subst i. apply Nx. eapply (wf_inj (mid_wf HM)); rewrite Hcur; eassumption.
    - split; [exact Hn|]. split; [exact Hb|].
      rewrite (mid_sim HM x), Hcur, Hi. cbn [option_map]. unfold cur_content, last_or. rewrite Hn. reflexivity. }
  split; [|split].
  - intros k ch Hk Hv. rewrite (HV k Hk) in Hv.
    pose proof (Hv ia) as Hva. cbn [p_inodes] in Hva. rewrite upd_nth_length, nth_upd_same in Hva by exact Hlen.
    specialize (Hva Hlen). apply in_map_iff in Hva. destruct Hva as (t & Ht & Hin). apply in_seq in Hin.
    exists t. split; [lia|]. exists m.
    assert (Hag : forall x, refs m x -> dget (mkview N ch) x = dget (apply_effs d (append_effs a (firstn t es))) x).
    { intros x Hx. rewrite dget_mkview. destruct (name_eqb_spec x a) as [->|Nx].
      - rewrite Hia. cbn [option_map]. rewrite <- Ht. unfold vers. symmetry. apply append_get. exact Hes0.
      - destruct (Hoth x Hx Nx) as (i & co & Hi & Ni & Hn & Hb & Hd). rewrite Hi. cbn [option_map].
        rewrite append_other by exact Nx. rewrite Hd. f_equal.
        pose proof (Hv i) as Hvi. cbn [p_inodes] in Hvi. rewrite upd_nth_length, nth_upd_other in Hvi by congruence.
        rewrite Hn in Hvi. destruct (Hvi (nth_singleton_lt _ _ _ Hn)) as [E|[]]. symmetry. exact E. }
    exact (RecM_agree c _ _ _ m (HDt t) Hag).
  - intros k Hk. rewrite (HV k Hk). reflexivity.
  - rewrite (append_fsync_versions a ia es0 es P N HN Hia Hlen Hnia).
    set (P' := mkPfs (upd_nth (p_inodes P) ia (fun _ => [vers es0 es (length es)])) [N]).
    destruct (sim_steps (append_effs a es ++ [EFsync a]) P d (mid_wf HM) (mid_sim HM)) as [W' S'].
    rewrite (append_fsync_versions a ia es0 es P N HN Hia Hlen Hnia) in W', S'. fold P' in W', S'.
    assert (Ed : apply_effs d (append_effs a es ++ [EFsync a]) = apply_effs d (append_effs a es))
      by (rewrite apply_effs_app; reflexivity).
    rewrite Ed in *. exists (length (p_inodes P)).
    assert (Hsy : forall x, refs m x -> synced P' (length (p_inodes P)) x).
    { intros x Hx. destruct (name_eqb_spec x a) as [->|Nx].
      - exists ia, (vers es0 es (length es)). split; [exact Hia|]. split; [apply nth_upd_same; exact Hlen|exact Hlen].
      - destruct (Hoth x Hx Nx) as (i & co & Hi & Ni & Hn & Hb & _). exists i, co. split; [exact Hi|].
        split; [cbn [p_inodes P']; rewrite nth_upd_other by congruence; exact Hn|]. pose proof (mid_B HM). lia. }
    split; [|split; [|reflexivity]].
    + constructor; [exact W'|exact S'| |exact Hsy|cbn [p_inodes P']; rewrite upd_nth_length; apply le_n].
      rewrite append_other by (destruct Hwa as [i ->]; discriminate). exact Hm.
    + intros N0 [<-|[]]. left. pose proof (HDt (length es)) as Rt. rewrite firstn_all in Rt.
      exact (Anch_cur c _ P' _ m _ S' Rt Hsy).
Qed.

Definition ends_dirsync (E : list eff) : Prop := E = [] \/ exists E', E = E' ++ [EFsyncDir].

Lemma single_after_dirsync : forall P E', exists N, p_ns (papply_all P (E' ++ [EFsyncDir])) = [N].
Proof. intros P E'. rewrite papply_all_app. cbn. eexists. reflexivity. Qed.

Lemma single_after : forall P N E, p_ns P = [N] -> ends_dirsync E -> exists N', p_ns (papply_all P E) = [N'].
Proof. intros P N E HN [->|[E' ->]]; [exists N; exact HN|apply single_after_dirsync]. Qed.

Lemma ends_dirsync_app : forall E1 E2, ends_dirsync E1 -> ends_dirsync E2 -> ends_dirsync (E1 ++ E2).
Proof.
  intros E1 E2 H1 [->|[E' ->]]; [rewrite app_nil_r; exact H1|]. right. exists (E1 ++ E'). rewrite app_assoc. reflexivity.
Qed.

Lemma save_manifest_ends : forall m, exists E', save_manifest_effs m = E' ++ [EFsyncDir].
Proof. intros m. exists (firstn 4 (save_manifest_effs m)). reflexivity. Qed.

Lemma newseg_ends : forall d m, ends_dirsync (newseg_effs d m).
Proof.
  intros d m. right. unfold newseg_effs.
  destruct (save_manifest_ends (mkManifest (m_snapshot m) (m_snapshot_seq m) (m_segments m ++ [NWal (fresh_id d)])))
    as [E' ->].
  eexists. rewrite app_assoc. reflexivity.
Qed.

Lemma rotate_shape : forall c lst s, InvDs c lst s ->
  snd (rotate_if_needed c s) = [] \/
  exists m, dget (st_disk s) NManifest = Some (FManifest m) /\ snd (rotate_if_needed c s) = newseg_effs (st_disk s) m.
Proof.
  intros c lst s H. destruct (rotate_cases c lst s H) as [->|(m & Hm & ->)]; [left; reflexivity|].
  right. exists m. split; [exact Hm|reflexivity].
Qed.

Lemma rotate_ends : forall c lst s, InvDs c lst s -> ends_dirsync (snd (rotate_if_needed c s)).
Proof.
  intros c lst s H. destruct (rotate_shape c lst s H) as [->|(m & _ & ->)]; [left; reflexivity|apply newseg_ends].
Qed.

Lemma snapshot_ends : forall c s, InvDs c (st_store s) s -> sorted (st_store s) -> docs_ok c (st_store s) ->
  ends_dirsync (snd (create_snapshot c s)).
Proof.
  intros c s H Hso Hdo.
  destruct (create_snapshot_shape c s H Hso Hdo) as (m & keep & del & _ & _ & _ & _ & _ & _ & _ & ->).
  cbn [snd]. right. unfold snap_effs. destruct (save_manifest_ends (snap_manifest s keep)) as [E' ->].
  eexists. rewrite !app_assoc. reflexivity.
Qed.

Lemma maybe_snapshot_ends : forall c s, InvDs c (st_store s) s -> sorted (st_store s) -> docs_ok c (st_store s) ->
  ends_dirsync (snd (maybe_snapshot c s)).
Proof.
  intros c s H Hso Hdo.
  destruct (maybe_snapshot_cases c s) as [-> | ->]; [left; reflexivity|exact (snapshot_ends c s H Hso Hdo)].
Qed.

(* the state between two operations *)
Definition Bnd (c : cfg) (s : state) (P : pfs) : Prop :=
  exists m B N, Mid P (st_disk s) m B /\ Safe c (st_store s) (st_store s) P B /\
                dget (st_disk s) NManifestTmp = None /\ p_ns P = [N].

Lemma block_rotate : forall c X Y s P, InvDs c X s -> Stable c X Y P (st_disk s) ->
  BlockOK c X Y P (st_disk s) (snd (rotate_if_needed c s)).
Proof.
  intros c X Y s P H St.
  destruct (rotate_shape c X s H) as [->|(m & Hm & ->)]; [exact (BlockOK_nil St)|].
  exact (block_newseg c X Y P _ _ _ m H St Hm).
Qed.

Lemma block_maybe_snapshot : forall c s Y P,
  InvDs c (st_store s) s -> sorted (st_store s) -> docs_ok c (st_store s) ->
  Stable c (st_store s) Y P (st_disk s) ->
  BlockOK c (st_store s) Y P (st_disk s) (snd (maybe_snapshot c s)).
Proof.
  intros c s Y P H Hso Hdo St. destruct (maybe_snapshot_cases c s) as [-> | ->]; cbn [snd].
  - exact (BlockOK_nil St).
  - exact (walk_snapshot c s Y P H Hso Hdo St).
Qed.

Lemma pview_single : forall P N l, p_ns P = [N] ->
  pview P l = mkview N (fun i => nth_clamped (nth i (p_inodes P) []) (l_data l i) FEmpty).
Proof.
  intros P N l H. rewrite pview_mkview, H. unfold nth_clamped at 1. cbn [length Nat.sub].
  rewrite Nat.min_0_r. reflexivity.
Qed.

(* a logging operation (BackendProofs.Logs) under power loss: while its frames are being written some prefix
   of its entries survives; from its fsync on, every view is the new collection *)
Lemma write_op_power : forall c s o s4 effs P,
  c_fsync c = FsAlways -> Bnd c s P -> Logs c s o s4 effs ->
  let es := op_entries c s o in
  (forall k l, (k <= length es)%nat -> exists t, (t <= k)%nat /\
       Rec c (fold_left apply_entry (firstn t es) (st_store s)) (pview (papply_all P (firstn k effs)) l)) /\
  (forall k, (length es < k)%nat -> (k <= length effs)%nat ->
       SafeE c (st_store s4) (st_store s4) (papply_all P (firstn k effs)) /\
       WF (papply_all P (firstn k effs))) /\
  Bnd c s4 (papply_all P effs).
Proof.
  intros c s o s4 effs P Hfs (m & B & N & HM & HS & HT & HN)
    (s1 & s3 & H & Hsq & Hdm & A1 & D1 & H3 & M3 & S3 & D3 & -> & ->) es.
  assert (Ef : fsync_effs c (st_active s) = [EFsync (st_active s)]) by (unfold fsync_effs; rewrite Hfs; reflexivity).
  rewrite Ef in *. fold es in Hsq, Hdm, A1, D1, H3, S3 |- *.
  set (X := st_store s) in *. set (X' := fold_left apply_entry es X) in *.
  set (a := st_active s) in *. set (d := st_disk s) in *. set (e1 := append_effs a es ++ [EFsync a]) in *.
  set (e2 := snd (rotate_if_needed c s1)) in *. set (e4 := snd (maybe_snapshot c s3)) in *.
  destruct (walk_append c X P d a (st_next_seq s) m B N es H HM HN Hsq Hdm) as (WA1 & WA2 & B1 & M1 & S1 & N1).
  fold e1 in M1, S1, N1. set (P1 := papply_all P e1) in *.
  pose proof M3 as (So3 & Do3 & _). rewrite <- S3 in H3.
  assert (Es4 : st_store (fst (maybe_snapshot c s3)) = X') by (rewrite (proj1 (maybe_snapshot_mem c s3)); exact S3).
  pose proof (proj1 (InvD_wal _ _ _ _ _ _ H (mid_man HM)) : is_wal a) as Hwa.
  assert (T1 : dget (apply_effs d e1) NManifestTmp = None).
  { unfold e1. rewrite apply_effs_app. change (apply_effs (apply_effs d (append_effs a es)) [EFsync a]) with (apply_effs d (append_effs a es)).
    rewrite append_other; [exact HT|]. destruct Hwa as [i ->]. discriminate. }
  (* rotation, then the automatic snapshot *)
  assert (BK : BlockOK c X' X' P1 (apply_effs d e1) (e2 ++ e4)).
  { rewrite <- D1 in *. apply BlockOK_app; [exact (block_rotate c X' X' s1 P1 A1 (Stable_intro M1 S1 T1))|].
    intros St'. rewrite <- D3 in *. rewrite <- S3 in *.
    exact (block_maybe_snapshot c s3 (st_store s3) _ H3 So3 Do3 St'). }
  destruct BK as (BK1 & (mE & BE & ME & SE) & TE).
  assert (Hl1 : length e1 = Datatypes.S (length es)) by (unfold e1; rewrite app_length, append_effs_length; cbn; lia).
  split; [|split].
  - intros k l Hk.
    assert (Hf : firstn k (e1 ++ e2 ++ e4) = firstn k (append_effs a es)).
    { rewrite firstn_app_le by lia. apply firstn_app_le. rewrite append_effs_length. exact Hk. }
    rewrite Hf. rewrite (pview_single _ N l (WA2 k Hk)).
    apply WA1; [exact Hk|]. apply clamped_valid.
    apply (sim_steps (firstn k (append_effs a es)) P d (mid_wf HM) (mid_sim HM)).
  - intros k Hk1 Hk2. rewrite Es4.
    rewrite firstn_app_ge by lia. rewrite papply_all_app. fold P1. split.
    + apply BK1. rewrite !app_length in *. lia.
    + apply (sim_steps _ P1 _ (mid_wf M1) (mid_sim M1)).
  - rewrite papply_all_app. fold P1. exists mE, BE.
    assert (Hd4 : st_disk (fst (maybe_snapshot c s3)) = apply_effs (apply_effs d e1) (e2 ++ e4)).
    { rewrite (maybe_snapshot_disk c s3 _ _ (surjective_pairing _)), D3, D1, apply_effs_app. reflexivity. }
    assert (He : ends_dirsync (e2 ++ e4))
      by (apply ends_dirsync_app; [exact (rotate_ends c X' s1 A1)|exact (maybe_snapshot_ends c s3 H3 So3 Do3)]).
    destruct (single_after P1 N _ N1 He) as [N4 HN4]. exists N4. rewrite Hd4, Es4. auto.
Qed.

Lemma Bnd_eq : forall c s s' P, st_disk s' = st_disk s -> st_store s' = st_store s -> Bnd c s P -> Bnd c s' P.
Proof. intros c s s' P E1 E2 H. unfold Bnd in *. rewrite E1, E2. exact H. Qed.

Lemma Bnd_start : forall c s P l, wf_cfg c = true -> Inv c s -> Bnd c s P ->
  exists r, start c (pview P l) = SOk r /\ st_store r = st_store s.
Proof.
  intros c s P l Hwf HI (m & B & N & HM & HS & _). destruct (Inv_mem _ _ HI) as [D1 S1].
  destruct (Safe_start c _ _ P B l Hwf (mid_wf HM) HS D1 S1 D1 S1) as (r & E & [Es|Es]); exists r; auto.
Qed.

Lemma Bnd_Stable : forall c s P, Bnd c s P -> Stable c (st_store s) (st_store s) P (st_disk s).
Proof. intros c s P (m & B & N & HM & HS & HT & _). exact (Stable_intro HM HS HT). Qed.

Lemma block_op : forall c s s' P E, wf_cfg c = true -> Inv c s -> Bnd c s P ->
  BlockOK c (st_store s) (st_store s) P (st_disk s) E -> ends_dirsync E ->
  st_disk s' = apply_effs (st_disk s) E -> st_store s' = st_store s ->
  (forall k l, (k <= length E)%nat ->
     exists r, start c (pview (papply_all P (firstn k E)) l) = SOk r /\ st_store r = st_store s) /\
  Bnd c s' (papply_all P E).
Proof.
  intros c s s' P E Hwf HI (m & B & N & HM & _ & _ & HN) (W1 & (mE & BE & ME & SE) & TE) He Dk Es. split.
  - intros k l Hk. destruct (W1 k Hk) as [Bk Sk]. destruct (Inv_mem _ _ HI) as [D1 S1].
    assert (Wk : WF (papply_all P (firstn k E)))
      by (apply (sim_steps _ P _ (mid_wf HM) (mid_sim HM))).
    destruct (Safe_start c _ _ _ Bk l Hwf Wk Sk D1 S1 D1 S1) as (r & Er & [Ex|Ex]); exists r; auto.
  - exists mE, BE.
    destruct (single_after P N E HN He) as [N' HN']. exists N'. rewrite Dk, Es. auto.
Qed.

Lemma finish_write : forall c s s4 es E P (known : nat -> bool),
  wf_cfg c = true -> Inv c s -> Inv c s4 ->
  st_store s4 = fold_left apply_entry es (st_store s) ->
  (forall k l, (k <= length es)%nat -> exists t, (t <= k)%nat /\
       Rec c (fold_left apply_entry (firstn t es) (st_store s)) (pview (papply_all P (firstn k E)) l)) ->
  (forall k, (length es < k)%nat -> (k <= length E)%nat ->
       SafeE c (st_store s4) (st_store s4) (papply_all P (firstn k E)) /\ WF (papply_all P (firstn k E))) ->
  (forall k t, (k <= length es)%nat -> (t <= k)%nat -> known k = false ->
       fold_left apply_entry (firstn t es) (st_store s) = st_store s \/
       fold_left apply_entry (firstn t es) (st_store s) = st_store s4) ->
  forall k l, (k <= length E)%nat -> known k = false ->
    exists r, start c (pview (papply_all P (firstn k E)) l) = SOk r /\ (st_store r = st_store s \/ st_store r = st_store s4).
Proof.
  intros c s s4 es E P known Hwf HI HI4 Es4 HA HB Hpart k l Hk Hkn.
  destruct (Inv_mem _ _ HI) as [D1 S1]. destruct (Inv_mem _ _ HI4) as [D4 S4].
  destruct (Nat.le_gt_cases k (length es)) as [L|G].
  - destruct (HA k l L) as (t & Ht & R). destruct (Hpart k t L Ht Hkn) as [Ef|Ef]; rewrite Ef in R.
    + destruct (Rec_start c _ _ Hwf R D1 S1) as (r & Er & Es). exists r. auto.
    + destruct (Rec_start c _ _ Hwf R D4 S4) as (r & Er & Es). exists r. auto.
  - destruct (HB k G Hk) as [[B HS] W].
    destruct (Safe_start c _ _ _ B l Hwf W HS D4 S4 D4 S4) as (r & Er & [Es|Es]); exists r; auto.
Qed.

Theorem op_power : forall c s o s' out effs P,
  wf_cfg c = true -> norm_ok_acc c -> c_fsync c = FsAlways -> Inv c s -> Bnd c s P ->
  step c s o = (s', out, effs) ->
  (forall k l, (k <= length effs)%nat -> known_power_op s o k = false ->
     exists r, start c (pview (papply_all P (firstn k effs)) l) = SOk r /\
               (st_store r = st_store s \/ st_store r = st_store s')) /\
  Bnd c s' (papply_all P effs).
Proof.
  intros c s o s' out effs P Hwf Hn Hfs HI HB Hst. pose proof HI as [H M].
  destruct (step_shape c s o s' out effs Hwf Hn HI Hst) as [(-> & D & E & HI')|[L|[(-> & Hs)|(-> & Hr)]]].
  - split; [|apply (Bnd_eq c s s' P D E HB)].
    intros k l _ _. rewrite firstn_nil. destruct (Bnd_start c s P l Hwf HI HB) as (r & Er & Es). exists r. auto.
  - (* t entries survive: none is the old collection, all is the new one, anything else is the recorded class *)
    destruct (write_op_power c s o s' effs P Hfs HB L) as (WA & WB & WC). destruct (Logs_inv _ _ _ _ _ L) as [HI' WD].
    split; [|exact WC]. intros k l Hk Hkn.
    apply (finish_write c s s' _ _ P (known_power_op s o) Hwf HI HI' WD WA WB); [|exact Hk|exact Hkn].
    intros k0 t Hk0 Ht Hk0n. destruct t as [|t]; [left; reflexivity|right].
    rewrite firstn_all2; [symmetry; exact WD|].
    destruct (op_entries_length c s o) as [Hl|(ids & -> & Hl)]; [lia|]. rewrite Hl in *. cbn [known_power_op] in Hk0n.
    destruct (Nat.lt_ge_cases (S t) (length (filter (mem (st_store s)) ids))) as [Lt|G]; [exfalso|exact G].
    assert (H2 : (2 <= length (filter (mem (st_store s)) ids))%nat) by lia. assert (H1 : (1 <= k0)%nat) by lia.
    apply Nat.leb_le in H2. apply Nat.leb_le in H1. apply Nat.leb_le in Hk0.
    rewrite H2, H1, Hk0 in Hk0n. discriminate.
  - destruct M as (A & B0 & _).
    pose proof (walk_snapshot c s (st_store s) P H A B0 (Bnd_Stable c s P HB)) as WS. rewrite Hs in WS. cbn [snd] in WS.
    destruct (create_snapshot_mem c s) as [Es _]. rewrite Hs in Es. cbn [fst] in Es.
    pose proof (snapshot_ends c s H A B0) as He. rewrite Hs in He. cbn [snd] in He.
    destruct (block_op c s s' P effs Hwf HI HB WS He (create_snapshot_disk _ _ _ _ _ Hs) Es) as [W1 W2].
    split; [|exact W2]. intros k l Hk _. destruct (W1 k l Hk) as (r & Er & Ex). exists r. auto.
  - pose proof H as (m & _ & _ & Hm & _).
    destruct (recover_inv c s Hwf HI) as (r0 & ef & E & Es & _ & _ & Dk). rewrite Hr in E. inversion E; subst r0 ef.
    assert (Ee : effs = newseg_effs (st_disk s) m)
      by (rewrite (recover_full_Inv c s m Hwf HI Hm) in Hr; inversion Hr; reflexivity).
    subst effs.
    destruct (block_op c s s' P _ Hwf HI HB
                (block_newseg c _ _ P _ (st_active s) (st_next_seq s) m H (Bnd_Stable c s P HB) Hm)
                (newseg_ends _ m) Dk Es) as [W1 W2].
    split; [|exact W2]. intros k l Hk _. destruct (W1 k l Hk) as (r & Er & Ex). exists r. auto.
Qed.

Lemma WF_empty : WF pfs_empty.
Proof.
  constructor; cbn.
  - discriminate.
  - constructor.
  - intros N x i [<-|[]] H. discriminate.
  - intros x y i H. discriminate.
Qed.

Lemma Sim_empty : Sim pfs_empty [].
Proof. intros x. reflexivity. Qed.

Ltac split_in :=
  repeat match goal with
         | H : _ \/ _ |- _ => destruct H
         | H : False |- _ => contradiction
         end.

Lemma init_views : forall c n N ch, wf_cfg c = true -> (n <= 8)%nat ->
  In N (p_ns (papply_all pfs_empty (firstn n init_effs))) ->
  valid_ch (papply_all pfs_empty (firstn n init_effs)) ch ->
  exists r, start c (mkview N ch) = SOk r /\ st_store r = empty.
Proof.
  intros c n N ch Hwf Hn HN Hv.
  pose proof (init_inv c Hwf) as HI. destruct (Inv_mem _ _ HI) as [D1 S1]. destruct HI as [HD _].
  pose proof (Rec_start c _ _ Hwf (InvD_Rec _ _ _ _ _ HD) D1 S1) as Hrec.
  pose proof (Hv 0%nat) as H0. pose proof (Hv 1%nat) as H1.
  assert (n = 0 \/ n = 1 \/ n = 2 \/ n = 3 \/ n = 4 \/ n = 5 \/ n = 6 \/ n = 7 \/ n = 8)%nat
    as [->|[->|[->|[->|[->|[->|[->|[->| ->]]]]]]]] by lia;
    vm_compute in HN, H0, H1; split_in; subst N;
    try (specialize (H0 ltac:(lia))); try (specialize (H1 ltac:(lia))); split_in;
    unfold mkview; cbn [map fst snd];
    repeat match goal with H : _ = ch _ |- _ => rewrite <- H end;
    try (eexists; split; [vm_compute; reflexivity|reflexivity]);
    exact Hrec.
Qed.

Lemma init_bnd : forall c, wf_cfg c = true -> Bnd c (init c) (papply_all pfs_empty init_effs).
Proof.
  intros c Hwf.
  destruct (sim_steps init_effs pfs_empty [] WF_empty Sim_empty) as [W S0].
  change (apply_effs [] init_effs) with (st_disk (init c)) in S0.
  pose proof (init_inv c Hwf) as [HD _].
  destruct (InvD_RecM _ _ _ _ _ HD) as (m & RM & Hm).
  assert (Em : m = mkManifest None None [NWal (fresh_id [])]) by (vm_compute in Hm; inversion Hm; reflexivity).
  subst m.
  assert (Hsy : forall x, refs (mkManifest None None [NWal (fresh_id [])]) x ->
                          synced (papply_all pfs_empty init_effs) 2 x).
  { intros x [->|[[<-|[]]|Hx]]; [| |discriminate].
    - exists 1%nat. eexists. split; [reflexivity|]. split; [reflexivity|lia].
    - exists 0%nat. eexists. split; [reflexivity|]. split; [reflexivity|lia]. }
  exists (mkManifest None None [NWal (fresh_id [])]), 2%nat. eexists. split; [|split; [|split]].
  - constructor; [exact W|exact S0|exact Hm|exact Hsy|vm_compute; lia].
  - intros N [<-|[]]. left.
    exact (Anch_cur c _ (papply_all pfs_empty init_effs) _ _ 2 S0 RM Hsy).
  - reflexivity.
  - reflexivity.
Qed.

Theorem power_run : forall c ops s P n l,
  wf_cfg c = true -> norm_ok_acc c -> c_fsync c = FsAlways -> Inv c s -> Bnd c s P ->
  known_power_run c s ops n = false ->
  exists r, start c (pview (papply_all P (firstn n (all_effs c s ops))) l) = SOk r /\
            (st_store r = cp_acked (crash_run c s ops n false) \/
             st_store r = cp_inflight (crash_run c s ops n false)).
Proof.
  intros c ops. induction ops as [|o rest IH]; intros s P n l Hwf Hn Hfs HI HB Hkn.
  - cbn [all_effs crash_run cp_acked cp_inflight]. rewrite firstn_nil.
    destruct (Bnd_start c s P l Hwf HI HB) as (r & Er & Es). exists r. auto.
  - cbn [all_effs crash_run known_power_run] in *. destruct (step c s o) as [[s' out] effs] eqn:Hst.
    destruct (op_power c s o s' out effs P Hwf Hn Hfs HI HB Hst) as [OP1 OP2].
    destruct (Nat.leb n (length effs)) eqn:Hle.
    + apply Nat.leb_le in Hle. cbn [cp_acked cp_inflight]. rewrite firstn_app_le by exact Hle.
      exact (OP1 n l Hle Hkn).
    + apply Nat.leb_gt in Hle. rewrite firstn_app_ge by lia. rewrite papply_all_app.
      apply IH; try assumption. exact (step_inv c s o s' out effs Hwf Hn HI Hst).
Qed.

Theorem power_hist : forall c ops n l,
  wf_cfg c = true -> norm_ok_acc c -> c_fsync c = FsAlways -> known_power c ops n = false ->
  exists r, start c (crash_power c ops n l) = SOk r /\
            (st_store r = cp_acked (crash_hist c ops n false) \/
             st_store r = cp_inflight (crash_hist c ops n false)).
Proof.
  intros c ops n l Hwf Hn Hfs Hkn. unfold crash_power, crash_hist, known_power in *.
  destruct (Nat.leb n (length init_effs)) eqn:Hle.
  - apply Nat.leb_le in Hle. cbn [cp_acked cp_inflight]. rewrite firstn_app_le by exact Hle.
    rewrite pview_mkview.
    destruct (sim_steps (firstn n init_effs) pfs_empty [] WF_empty Sim_empty) as [W _].
    destruct (init_views c n _ _ Hwf Hle
                (nth_clamped_in _ _ (l_dir l) [] (wf_ns W)) (clamped_valid _ l W)) as (r & Er & Es).
    exists r. auto.
  - apply Nat.leb_gt in Hle. rewrite firstn_app_ge by lia. rewrite papply_all_app.
    apply power_run; try assumption; [apply init_inv; exact Hwf|apply init_bnd; exact Hwf].
Qed.

(* power_bad skips only the kill-model class, so it reports nothing in a history in which the larger
   power-loss class is empty: one without a batch_delete of two or more live ids. *)
Fixpoint small_batches (c : cfg) (s : state) (ops : list op) : bool :=
  match ops with
  | [] => true
  | o :: r => negb (known_power_op s o 1) && small_batches c (step_state c s o) r
  end.

Lemma small_batches_run : forall c ops s n, small_batches c s ops = true -> known_power_run c s ops n = false.
Proof.
  induction ops as [|o r IH]; intros s n H; [reflexivity|].
  cbn [small_batches] in H. apply andb_true_iff in H. destruct H as [H1 H2].
  cbn [known_power_run]. unfold step_state in H2. destruct (step c s o) as [[s' out] effs]. cbn [fst] in H2.
  destruct (Nat.leb n (length effs)); [|apply IH; exact H2].
  destruct o; try reflexivity. cbn [known_power_op] in *.
  destruct (length (filter _ _)) as [|[|k]]; [reflexivity|reflexivity|discriminate H1].
Qed.

Theorem power_bad_nil : forall c ops, wf_cfg c = true -> norm_ok_acc c -> c_fsync c = FsAlways ->
  small_batches c (init c) ops = true -> power_bad c ops = [].
Proof.
  intros c ops Hwf Hn Hfs Hk. unfold power_bad. apply flat_map_nil. intros n _.
  destruct (known_c01 c ops n); [reflexivity|]. apply flat_map_nil. intros [i l] _. cbn [fst snd].
  assert (Hp : known_power c ops n = false).
  { unfold known_power. destruct (Nat.leb n _); [reflexivity|]. apply small_batches_run, Hk. }
  destruct (power_hist c ops n l Hwf Hn Hfs Hp) as (r & E & S). rewrite (store_in_point_ok _ _ _ E S). reflexivity.
Qed.
