(* Facts about the pieces of Model/Conc09.v: thread and file association lists, replay and coverage,
   the entries of a list of segments (`flat`), compaction as two filters. *)
From Coq Require Import List NArith Bool Lia Arith Sorted.
From Kyro Require Import Model.Amap Model.Conc09 Proofs.ListFacts.
Import ListNotations.
Open Scope N_scope.

Lemma last_notin_pre : forall (pre : list N) a, NoDup (pre ++ [a]) -> ~ In a pre.
Proof.
  intros pre a H Hin. apply NoDup_remove_2 in H. apply H. rewrite app_nil_r. exact Hin.
Qed.

Lemma tget_tset : forall l t p t', tget (tset l t p) t' = if Nat.eqb t t' then p else tget l t'.
Proof.
  induction l as [|[k q] r IH]; intros t p t'; cbn [tset tget].
  - destruct (Nat.eqb t t'); reflexivity.
  - destruct (Nat.eqb k t) eqn:E; cbn [tget].
    + apply Nat.eqb_eq in E; subst k. destruct (Nat.eqb t t'); reflexivity.
    + rewrite IH. destruct (Nat.eqb t t') eqn:E2; [|reflexivity].
      apply Nat.eqb_eq in E2; subst t'. rewrite E. reflexivity.
Qed.

Lemma tget_tset_same : forall l t p, tget (tset l t p) t = p.
Proof. intros. rewrite tget_tset, Nat.eqb_refl. reflexivity. Qed.

Lemma tget_tset_other : forall l t p t', t <> t' -> tget (tset l t p) t' = tget l t'.
Proof. intros. rewrite tget_tset. destruct (Nat.eqb t t') eqn:E; [apply Nat.eqb_eq in E; tauto|reflexivity]. Qed.

Lemma forallb_tget : forall (h : phase -> bool) l, h Idle = true ->
  forallb (fun tp => h (snd tp)) l = true -> forall t, h (tget l t) = true.
Proof.
  induction l as [|[k q] r IH]; intros Hi H t; cbn [tget]; [exact Hi|].
  cbn [forallb snd] in H. apply andb_true_iff in H. destruct H as [H1 H2].
  destruct (Nat.eqb k t); auto.
Qed.

Section AssocLemmas.
  Context {V : Type}.
  Implicit Types l : list (N * V).

  Lemma fget_fset : forall l k v k', fget (fset l k v) k' = if N.eqb k k' then Some v else fget l k'.
  Proof.
    induction l as [|[k0 v0] r IH]; intros k v k'; cbn [fset fget].
    - destruct (N.eqb k k'); reflexivity.
    - destruct (N.eqb k0 k) eqn:E; cbn [fget].
      + apply N.eqb_eq in E; subst k0. destruct (N.eqb k k'); reflexivity.
      + rewrite IH. destruct (N.eqb k k') eqn:E2; [|reflexivity].
        apply N.eqb_eq in E2; subst k'. rewrite E. reflexivity.
  Qed.

  Lemma fget_fdel : forall l k k', fget (fdel l k) k' = if N.eqb k k' then None else fget l k'.
  Proof.
    induction l as [|[k0 v0] r IH]; intros k k'; cbn [fdel fget].
    - destruct (N.eqb k k'); reflexivity.
    - destruct (N.eqb k0 k) eqn:E.
      + apply N.eqb_eq in E; subst k0. rewrite IH. destruct (N.eqb k k'); reflexivity.
      + cbn [fget]. rewrite IH. destruct (N.eqb k k') eqn:E2; [|reflexivity].
        apply N.eqb_eq in E2; subst k'. rewrite E. reflexivity.
  Qed.
End AssocLemmas.

Lemma fget_fset_same {V} : forall (l : list (N * V)) k v, fget (fset l k v) k = Some v.
Proof. intros. rewrite fget_fset, N.eqb_refl. reflexivity. Qed.
Lemma fget_fset_other {V} : forall (l : list (N * V)) k v k', k <> k' -> fget (fset l k v) k' = fget l k'.
Proof. intros. rewrite fget_fset. destruct (N.eqb k k') eqn:E; [apply N.eqb_eq in E; tauto|reflexivity]. Qed.
Lemma fget_fdel_other {V} : forall (l : list (N * V)) k k', k <> k' -> fget (fdel l k) k' = fget l k'.
Proof. intros. rewrite fget_fdel. destruct (N.eqb k k') eqn:E; [apply N.eqb_eq in E; tauto|reflexivity]. Qed.

Lemma fget_unlink : forall del files f,
  fget (unlink_all files del) f = if existsb (N.eqb f) del then None else fget files f.
Proof.
  unfold unlink_all. induction del as [|d r IH]; intros files f; cbn [fold_left existsb]; [reflexivity|].
  rewrite IH, fget_fdel. rewrite (N.eqb_sym f d).
  destruct (N.eqb d f); cbn [orb]; destruct (existsb (N.eqb f) r); reflexivity.
Qed.

Lemma fget_unlink_notin : forall del files f, ~ In f del -> fget (unlink_all files del) f = fget files f.
Proof.
  intros. rewrite fget_unlink. destruct (existsb (N.eqb f) del) eqn:E; [|reflexivity].
  apply existsb_eqb_In in E. tauto.
Qed.

Lemma fget_unlink_some : forall del files f es, fget (unlink_all files del) f = Some es -> fget files f = Some es.
Proof. intros del files f es. rewrite fget_unlink. destruct (existsb (N.eqb f) del); [discriminate|auto]. Qed.

Lemma replay_app : forall last d a b, replay last d (a ++ b) = replay last (replay last d a) b.
Proof. intros. unfold replay. apply fold_left_app. Qed.

Lemma replay_filter : forall last es d,
  replay last d es = apply_entries d (filter (fun e => negb (covered last e)) es).
Proof.
  induction es as [|e r IH]; intros d; [reflexivity|].
  unfold replay, apply_entries in *. cbn [fold_left filter]. unfold replay1 at 2.
  destruct (covered last e); cbn [negb]; [apply IH|cbn [fold_left]; apply IH].
Qed.

Lemma replay_covered_all : forall last es d, forallb (covered last) es = true -> replay last d es = d.
Proof.
  intros last es d H. rewrite replay_filter, filter_none; [reflexivity|].
  rewrite forallb_forall in H. intros e He. rewrite (H e He). reflexivity.
Qed.

Lemma replay_uncovered : forall last es d, (forall e, In e es -> covered last e = false) ->
  replay last d es = apply_entries d es.
Proof.
  intros last es d H. rewrite replay_filter, filter_all; [reflexivity|].
  intros e He. rewrite (H e He). reflexivity.
Qed.

Lemma covered_spec : forall l e, covered l e = true <-> 1 <= e_seq e <= l.
Proof. intros. unfold covered. rewrite !andb_true_iff, !N.ltb_lt, N.leb_le. lia. Qed.

Lemma covered_above : forall l e, l < e_seq e -> covered l e = false.
Proof. intros l e H. apply not_true_is_false. rewrite covered_spec. lia. Qed.

Lemma forallb_covered_mono : forall l l' es, l <= l' -> forallb (covered l) es = true -> forallb (covered l') es = true.
Proof.
  intros l l' es Hle H. rewrite forallb_forall in *. intros e He. specialize (H e He).
  rewrite covered_spec in *. lia.
Qed.

Lemma apply_entries_app : forall d a b, apply_entries d (a ++ b) = apply_entries (apply_entries d a) b.
Proof. intros. unfold apply_entries. apply fold_left_app. Qed.

Definition content (files : list (N * list entry)) (f : N) : list entry :=
  match fget files f with Some es => es | None => [] end.
Definition flat (files : list (N * list entry)) (segs : list N) : list entry :=
  concat (map (content files) segs).

Lemma flat_app : forall files a b, flat files (a ++ b) = flat files a ++ flat files b.
Proof. intros. unfold flat. rewrite map_app, concat_app. reflexivity. Qed.

Lemma flat_cons : forall files f r, flat files (f :: r) = content files f ++ flat files r.
Proof. reflexivity. Qed.

Lemma flat_ext : forall files files' segs, (forall f, In f segs -> fget files' f = fget files f) ->
  flat files' segs = flat files segs.
Proof.
  induction segs as [|f r IH]; intros H; [reflexivity|].
  rewrite !flat_cons. unfold content. rewrite (H f (or_introl eq_refl)).
  f_equal. apply IH. intros g Hg. apply H. right. exact Hg.
Qed.

Lemma read_segs_flat : forall files segs, (forall f, In f segs -> exists es, fget files f = Some es) ->
  read_segs files segs = Some (flat files segs).
Proof.
  induction segs as [|f r IH]; intros H; [reflexivity|].
  cbn [read_segs]. destruct (H f (or_introl eq_refl)) as [es Hes]. rewrite Hes.
  rewrite IH by (intros g Hg; apply H; right; exact Hg).
  rewrite flat_cons. unfold content. rewrite Hes. reflexivity.
Qed.

Lemma fget_fappend : forall files act es old f, fget files act = Some old ->
  fget (fappend files act es) f = if N.eqb act f then Some (old ++ es) else fget files f.
Proof. intros files act es old f Hold. unfold fappend. rewrite Hold. apply fget_fset. Qed.

(* appending to the active (= last listed, listed once) segment appends to the listed entries *)
Lemma flat_fappend : forall files pre act es old,
  ~ In act pre -> fget files act = Some old ->
  flat (fappend files act es) (pre ++ [act]) = flat files (pre ++ [act]) ++ es.
Proof.
  intros files pre act es old Hn Hold.
  rewrite !flat_app. rewrite <- app_assoc. f_equal.
  - apply flat_ext. intros f Hf. rewrite (fget_fappend _ _ _ _ _ Hold).
    destruct (N.eqb_spec act f); [subst; tauto|reflexivity].
  - unfold flat. cbn [map concat]. rewrite !app_nil_r. unfold content.
    rewrite (fget_fappend _ _ _ _ _ Hold), N.eqb_refl, Hold. reflexivity.
Qed.

Lemma In_flat : forall files segs e,
  In e (flat files segs) <-> exists f es, In f segs /\ fget files f = Some es /\ In e es.
Proof.
  intros files segs e. unfold flat. rewrite in_concat. split.
  - intros (l & Hl & He). apply in_map_iff in Hl as (f & <- & Hf). unfold content in He.
    destruct (fget files f) as [es|] eqn:E; [|destruct He]. exists f, es. auto.
  - intros (f & es & Hf & E & He). exists (content files f). split; [apply in_map; exact Hf|].
    unfold content. rewrite E. exact He.
Qed.

Lemma flat_filter_incl : forall files p segs e, In e (flat files (filter p segs)) -> In e (flat files segs).
Proof.
  intros files p segs e. rewrite !In_flat. intros (f & es & Hf & H). apply filter_In in Hf as [Hf _]. eauto.
Qed.

Lemma flat_filter_sorted : forall files p segs tail,
  StronglySorted N.lt (map e_seq (flat files (segs ++ tail))) ->
  StronglySorted N.lt (map e_seq (flat files (filter p segs ++ tail))).
Proof.
  induction segs as [|f r IH]; intros tail H; [exact H|].
  cbn [app filter] in *. rewrite flat_cons, map_app in H. apply StronglySorted_app_iff in H as (S1 & S2 & S3).
  destruct (p f); [|apply IH; exact S2].
  cbn [app]. rewrite flat_cons, map_app. apply StronglySorted_app_iff. split; [exact S1|]. split; [apply IH; exact S2|].
  intros x y Hx Hy. apply S3; [exact Hx|]. apply in_map_iff in Hy as (e & <- & He). apply in_map.
  rewrite flat_app in *. apply in_app_or in He as [He|He]; apply in_or_app; [left; eapply flat_filter_incl; eauto|right; exact He].
Qed.

(* a listed segment is dropped when it exists and the snapshot covers all its entries; a missing one
   leaves the list as well; the last listed segment (the active one) always stays *)
Definition seg_dead files last (f : N) : bool :=
  match fget files f with Some es => forallb (covered last) es | None => false end.
Definition seg_live files last (f : N) : bool :=
  match fget files f with Some es => negb (forallb (covered last) es) | None => false end.

Lemma compact_snoc : forall files last pre a,
  compact files last (pre ++ [a]) = (filter (seg_live files last) pre ++ [a], filter (seg_dead files last) pre).
Proof.
  induction pre as [|f r IH]; intros a; [reflexivity|].
  change ((f :: r) ++ [a]) with (f :: (r ++ [a])).
  destruct (r ++ [a]) as [|g r'] eqn:E; [destruct r; discriminate|].
  change (compact files last (f :: g :: r')) with
    (let '(k, d) := compact files last (g :: r') in
     match fget files f with
     | None => (k, d)
     | Some es => if forallb (covered last) es then (k, f :: d) else (f :: k, d)
     end).
  rewrite <- E, IH. cbn [filter]. unfold seg_live, seg_dead.
  destruct (fget files f) as [es|]; [destruct (forallb (covered last) es)|]; reflexivity.
Qed.

Lemma seg_dead_not_live : forall files last f, seg_dead files last f = true -> seg_live files last f = false.
Proof. intros files last f. unfold seg_dead, seg_live. destruct (fget files f); [intros ->; reflexivity|discriminate]. Qed.

Lemma live_replay : forall files last last' pre d, last <= last' ->
  replay last' d (flat files (filter (seg_live files last) pre)) = replay last' d (flat files pre).
Proof.
  induction pre as [|f r IH]; intros d Hle; [reflexivity|].
  cbn [filter]. rewrite (flat_cons files f r), replay_app. unfold seg_live, content.
  destruct (fget files f) as [es|] eqn:Ef; [destruct (forallb (covered last) es) eqn:Ec|]; cbn [negb].
  - rewrite (replay_covered_all last' es) by (eapply forallb_covered_mono; eauto). auto.
  - rewrite flat_cons, replay_app. unfold content. rewrite Ef. auto.
  - cbn. auto.
Qed.

Lemma live_all : forall files last pre, (forall f, In f pre -> exists es, fget files f = Some es) ->
  filter (seg_dead files last) pre = [] -> filter (seg_live files last) pre = pre.
Proof.
  intros files last pre Hex Hd. apply filter_all. intros f Hf.
  assert (Hn : seg_dead files last f = false).
  { destruct (seg_dead files last f) eqn:E; [|reflexivity].
    assert (In f (filter (seg_dead files last) pre)) by (apply filter_In; auto). rewrite Hd in H. destruct H. }
  unfold seg_dead, seg_live in *. destruct (Hex f Hf) as [es E]. rewrite E in *. rewrite Hn. reflexivity.
Qed.

Lemma mk_entries_bounds : forall ops base e, In e (mk_entries base ops) ->
  base <= e_seq e /\ e_seq e < base + N.of_nat (length ops).
Proof.
  induction ops as [|o r IH]; intros base e H; [destruct H|].
  cbn [mk_entries] in H. cbn [length]. rewrite Nat2N.inj_succ. destruct H as [H|H].
  - subst e. cbn [e_seq]. lia.
  - apply IH in H. lia.
Qed.

Lemma mk_entries_sorted : forall ops base, StronglySorted N.lt (map e_seq (mk_entries base ops)).
Proof.
  induction ops as [|o r IH]; intros base; cbn [mk_entries map]; constructor; [apply IH|].
  apply Forall_forall. intros y Hy. apply in_map_iff in Hy. destruct Hy as [e [He1 He2]]. subst y.
  apply mk_entries_bounds in He2. cbn [e_seq]. lia.
Qed.
