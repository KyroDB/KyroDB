(* Proofs about Model/Backup.v (property C12). *)
From Coq Require Import List NArith Bool Lia Sorted Permutation PeanoNat.
From Kyro Require Import Model.Backup Proofs.ListFacts.
Import ListNotations.
Open Scope N_scope.

Lemma Forall2_impl : forall {A B} (R R' : A -> B -> Prop) l l',
  (forall a b, R a b -> R' a b) -> Forall2 R l l' -> Forall2 R' l l'.
Proof. intros A B R R' l l' H HF; induction HF; constructor; auto. Qed.

Lemma fold_left_inv_in : forall {A B} (f : A -> B -> A) (P : A -> Prop) l,
  (forall a b, In b l -> P a -> P (f a b)) -> forall a, P a -> P (fold_left f l a).
Proof.
  intros A B f P; induction l as [|b l IH]; intros H a Ha; cbn; [exact Ha|].
  apply IH; [intros a' b' Hb; apply H; now right|apply H; [now left|exact Ha]].
Qed.

Lemma memN_In : forall x l, memN x l = true <-> In x l.
Proof.
  induction l as [|y r IH]; cbn; [split; [discriminate|contradiction]|].
  rewrite orb_true_iff, N.eqb_eq, IH. split; intros [H|H]; auto.
Qed.

Lemma memN_false : forall x l, memN x l = false <-> ~ In x l.
Proof. intros x l. rewrite <- memN_In. destruct (memN x l); intuition congruence. Qed.

Lemma fname_eqb_spec : forall a b, reflect (a = b) (fname_eqb a b).
Proof.
  intros [|x|x|x] [|y|y|y]; cbn; try (constructor; congruence);
    destruct (N.eqb_spec x y); constructor; congruence.
Qed.

Lemma fname_eqb_refl : forall a, fname_eqb a a = true.
Proof. intro a. now destruct (fname_eqb_spec a a). Qed.

Lemma fname_eqb_sym : forall a b, fname_eqb a b = fname_eqb b a.
Proof.
  intros a b; destruct (fname_eqb_spec a b) as [->|NE]; [now rewrite fname_eqb_refl|].
  destruct (fname_eqb_spec b a); congruence.
Qed.

Lemma tget_tput_same : forall t n c, tget (tput t n c) n = Some c.
Proof.
  induction t as [|[k v] r IH]; intros n c; cbn.
  - now rewrite fname_eqb_refl.
  - destruct (fname_eqb k n) eqn:E; cbn; rewrite E; auto.
Qed.

Lemma tget_tput_other : forall t n c n', n <> n' -> tget (tput t n c) n' = tget t n'.
Proof.
  induction t as [|[k v] r IH]; intros n c n' NE; cbn.
  - now destruct (fname_eqb_spec n n').
  - destruct (fname_eqb_spec k n) as [->|E]; cbn; [now destruct (fname_eqb_spec n n')|].
    destruct (fname_eqb k n'); auto.
Qed.

Lemma tget_strip : forall d n, tget (strip d) n = option_map fst (sget d n).
Proof.
  induction d as [|[k [c mt]] r IH]; intros n; cbn; auto.
  destruct (fname_eqb k n); cbn; auto.
Qed.

(* sget and tget are the same lookup at two value types *)
Section Lookup.
  Context {V : Type}.
  Fixpoint aget (l : list (fname * V)) (n : fname) : option V :=
    match l with [] => None | (k, v) :: r => if fname_eqb k n then Some v else aget r n end.

  Lemma aget_in : forall l n x, aget l n = Some x -> In (n, x) l.
  Proof.
    induction l as [|[k v] r IH]; intros n x H; cbn in *; try discriminate.
    destruct (fname_eqb_spec k n) as [->|E]; [inversion H; subst|]; auto.
  Qed.

  Lemma in_aget_nodup : forall l n x, NoDup (map fst l) -> In (n, x) l -> aget l n = Some x.
  Proof.
    induction l as [|[k v] r IH]; intros n x ND HI; cbn in *; [contradiction|].
    inversion ND as [|? ? NI ND']; subst.
    destruct HI as [E|HI].
    - inversion E; subst; rewrite fname_eqb_refl; reflexivity.
    - destruct (fname_eqb_spec k n) as [->|E]; [|auto].
      destruct NI. apply in_map_iff; exists (n, x); auto.
  Qed.
End Lookup.

Lemma tget_in : forall t n c, tget t n = Some c -> In (n, c) t.
Proof. exact (@aget_in content). Qed.

Lemma in_tget_nodup : forall t n c, NoDup (map fst t) -> In (n, c) t -> tget t n = Some c.
Proof. exact (@in_aget_nodup content). Qed.

Lemma sget_in : forall d n x, sget d n = Some x -> In (n, x) d.
Proof. exact (@aget_in (content * N)). Qed.

Lemma in_sget_nodup : forall d n x, NoDup (map fst d) -> In (n, x) d -> sget d n = Some x.
Proof. exact (@in_aget_nodup (content * N)). Qed.

Lemma content_eq_dec : forall a b : content, {a = b} + {a <> b}.
Proof.
  assert (HN : forall x y : N, {x = y} + {x <> y}) by apply N.eq_dec.
  assert (HO : forall x y : option N, {x = y} + {x <> y}) by (decide equality).
  assert (HL : forall x y : list N, {x = y} + {x <> y}) by (apply list_eq_dec; exact HN).
  assert (HM : forall x y : manifest, {x = y} + {x <> y}) by (decide equality).
  decide equality.
Qed.

Lemma content_eq_dec_opt : forall a b : option content, {a = b} + {a <> b}.
Proof. decide equality; apply content_eq_dec. Qed.

(* writing a list of members: the last member of a name decides; untouched names keep their file *)
Definition put_all (t : tdir) (files : tdir) : tdir :=
  fold_left (fun acc e => tput acc (fst e) (snd e)) files t.

Lemma put_all_cases : forall files t n,
  ((forall c, ~ In (n, c) files) /\ tget (put_all t files) n = tget t n) \/
  exists c, In (n, c) files /\ tget (put_all t files) n = Some c.
Proof.
  induction files as [|[k v] r IH]; intros t n; [left; split; [intros c []|reflexivity]|].
  unfold put_all in *; cbn [fold_left fst snd].
  destruct (IH (tput t k v) n) as [[HN E]|(c & HI & E)]; [|right; exists c; split; [right; exact HI|exact E]].
  rewrite E. destruct (fname_eqb_spec k n) as [->|EK].
  - right; exists v. split; [left; reflexivity|apply tget_tput_same].
  - left. split; [|apply tget_tput_other; exact EK].
    intros c [H|H]; [congruence|exact (HN c H)].
Qed.

Lemma put_all_untouched : forall files t n,
  (forall c, ~ In (n, c) files) -> tget (put_all t files) n = tget t n.
Proof. intros files t n H. destruct (put_all_cases files t n) as [[_ E]|(c & HI & _)]; [exact E|destruct (H c HI)]. Qed.

Lemma put_all_written : forall files t n c,
  In (n, c) files -> (forall c', In (n, c') files -> c' = c) -> tget (put_all t files) n = Some c.
Proof.
  intros files t n c HI HU. destruct (put_all_cases files t n) as [[HN _]|(c' & HI' & E)]; [destruct (HN c HI)|].
  now rewrite <- (HU c' HI').
Qed.

Lemma put_all_source : forall files t n c, tget (put_all t files) n = Some c -> tget t n = Some c \/ In (n, c) files.
Proof.
  intros files t n c H. destruct (put_all_cases files t n) as [[_ E]|(c' & HI & E)]; rewrite E in H; [left; exact H|].
  inversion H; subst; right; exact HI.
Qed.

Lemma tput_fresh : forall t n c, ~ In n (map fst t) -> tput t n c = t ++ [(n, c)].
Proof.
  induction t as [|[k v] r IH]; intros n c H; cbn in *; auto.
  destruct (fname_eqb_spec k n) as [->|E].
  - destruct H; left; reflexivity.
  - f_equal; apply IH; intro HI; apply H; right; exact HI.
Qed.

Lemma put_all_nodup : forall files t,
  NoDup (map fst (t ++ files)) -> put_all t files = t ++ files.
Proof.
  induction files as [|[k v] r IH]; intros t ND; cbn.
  - rewrite app_nil_r; reflexivity.
  - unfold put_all in *; cbn.
    assert (NI : ~ In k (map fst t)).
    { rewrite map_app in ND. cbn in ND. apply NoDup_remove_2 in ND. intro HI; apply ND.
      apply in_or_app; left; exact HI. }
    rewrite tput_fresh by exact NI.
    rewrite IH; rewrite <- app_assoc; cbn; auto.
Qed.

Lemma restore_chain_eq : forall ch t o, restore_chain ch t o =
  if negb (forallb b_ok ch) then (Some EVerify, t)
  else if match t with [] => false | _ => negb (o_allow o) && negb (o_env o) end then (Some ENeedConfirm, t)
  else if o_dry o then (None, t) else (None, extract_chain [] ch).
Proof.
  intros ch t o. unfold restore_chain, clear_target.
  destruct (negb _), t, (negb (o_allow o) && negb (o_env o)), (o_dry o); reflexivity.
Qed.

(* restore_by_id and restore_pitr are both `via_chain <chain or error> t o` by computation *)
Definition via_chain (c : res (list backup)) (t : tdir) (o : copts) : option berr * tdir :=
  match c with Err e => (Some e, t) | Ok ch => restore_chain ch t o end.

Lemma via_chain_err : forall c t o e t', via_chain c t o = (Some e, t') -> t' = t.
Proof.
  intros [ch|e1] t o e t'; cbn [via_chain]; [rewrite restore_chain_eq|congruence].
  destruct (negb _), t, (negb (o_allow o) && negb (o_env o)), (o_dry o); congruence.
Qed.

Lemma via_chain_tamper : forall c t o ch b, c = Ok ch -> In b ch -> b_ok b = false ->
  via_chain c t o = (Some EVerify, t).
Proof.
  intros c t o ch b -> HI HB. cbn [via_chain]. rewrite restore_chain_eq.
  destruct (forallb b_ok ch) eqn:E; [|reflexivity].
  rewrite forallb_forall in E. rewrite (E b HI) in HB. discriminate.
Qed.

Lemma via_chain_no_confirm : forall c t o r t', t <> [] -> o_allow o = false -> o_env o = false ->
  via_chain c t o = (r, t') -> t' = t /\ r <> None.
Proof.
  intros c t o r t' NE HA HE. destruct t as [|x t0]; [contradiction|].
  destruct c as [ch|e1]; cbn [via_chain]; [rewrite restore_chain_eq, HA, HE; destruct (negb _)|];
    cbn [negb andb]; intro H; inversion H; (split; [reflexivity|discriminate]).
Qed.

Lemma via_chain_dry : forall c t o r t', o_dry o = true -> via_chain c t o = (r, t') -> t' = t.
Proof.
  intros [ch|e1] t o r t' HD; cbn [via_chain]; [rewrite restore_chain_eq, HD|congruence].
  destruct (negb _), t, (negb (o_allow o) && negb (o_env o)); congruence.
Qed.

Definition core (b : backup) := (b_id b, b_parent b, b_kind b, b_files b, b_ok b).
Definition same_core (b b' : backup) : Prop := core b = core b'.
Definition same_core_ts (b b' : backup) : Prop := core b = core b' /\ b_ts b = b_ts b'.

Definition res_map {A B} (f : A -> B) (r : res A) : res B :=
  match r with Ok a => Ok (f a) | Err x => Err x end.

(* A restore reads the records of the store only through the fields of `core` (and b_ts for PITR):
   it commutes with any map e over the store that keeps those fields. *)
Section Erase.
  Variable e : backup -> backup.
  Hypothesis e_id : forall b, b_id (e b) = b_id b.
  Hypothesis e_parent : forall b, b_parent (e b) = b_parent b.
  Hypothesis e_kind : forall b, b_kind (e b) = b_kind b.
  Hypothesis e_files : forall b, b_files (e b) = b_files b.
  Hypothesis e_ok : forall b, b_ok (e b) = b_ok b.

  Lemma is_full_e b : is_full (e b) = is_full b.
  Proof. unfold is_full. now rewrite e_kind. Qed.

  Lemma find_b_map st id : find_b (map e st) id = option_map e (find_b st id).
  Proof. induction st as [|b r IH]; cbn; [reflexivity|]. rewrite e_id, IH. now destruct (b_id b =? id). Qed.

  Lemma chain_up_map st fuel : forall cur acc,
    chain_up fuel (map e st) (e cur) (map e acc) = res_map (map e) (chain_up fuel st cur acc).
  Proof.
    induction fuel as [|f IH]; intros cur acc; cbn; rewrite e_parent; destruct (b_parent cur) as [pid|]; try reflexivity.
    rewrite find_b_map. destruct (find_b st pid) as [p|]; cbn; [|reflexivity].
    rewrite is_full_e. destruct (is_full p); [reflexivity|]. apply (IH p (p :: acc)).
  Qed.

  Lemma build_chain_map st id : build_chain (map e st) id = res_map (map e) (build_chain st id).
  Proof.
    unfold build_chain. rewrite find_b_map, map_length. destruct (find_b st id) as [b|]; cbn; [|reflexivity].
    rewrite is_full_e. destruct (is_full b); [reflexivity|]. rewrite (chain_up_map st _ b [b]).
    destruct (chain_up (length st) st b [b]) as [[|h c]|x]; cbn; try reflexivity.
    rewrite is_full_e. now destruct (is_full h).
  Qed.

  Lemma restore_chain_map ch t o : restore_chain (map e ch) t o = restore_chain ch t o.
  Proof.
    assert (E1 : forallb b_ok (map e ch) = forallb b_ok ch)
      by (induction ch as [|b r IH]; cbn; [reflexivity|now rewrite e_ok, IH]).
    assert (E2 : forall t0, extract_chain t0 (map e ch) = extract_chain t0 ch).
    { clear E1. unfold extract_chain. induction ch as [|b r IH]; intro t0; cbn [map fold_left]; [reflexivity|].
      rewrite IH. unfold extract. now rewrite e_files. }
    now rewrite !restore_chain_eq, E1, E2.
  Qed.

  Lemma restore_by_id_map st t id o : restore_by_id (map e st) t id o = restore_by_id st t id o.
  Proof.
    unfold restore_by_id. rewrite build_chain_map.
    destruct (build_chain st id); cbn; [apply restore_chain_map|reflexivity].
  Qed.

  Hypothesis e_ts : forall b, b_ts (e b) = b_ts b.

  Lemma ins_desc_map x l : ins_desc (e x) (map e l) = map e (ins_desc x l).
  Proof.
    induction l as [|y r IH]; cbn; [reflexivity|]. rewrite !e_ts.
    destruct (b_ts y <=? b_ts x); cbn; [reflexivity|now rewrite IH].
  Qed.

  Lemma list_backups_map st : list_backups (map e st) = map e (list_backups st).
  Proof.
    induction st as [|x r IH]; cbn; [reflexivity|]. unfold list_backups in *. cbn. now rewrite IH, ins_desc_map.
  Qed.

  Lemma find_map (p : backup -> bool) l : (forall b, p (e b) = p b) -> find p (map e l) = option_map e (find p l).
  Proof. intro H. induction l as [|b r IH]; cbn; [reflexivity|]. rewrite H, IH. now destruct (p b). Qed.

  Lemma pitr_incr_map fuel : forall l target cur,
    pitr_incrementals fuel (map e l) target cur = map e (pitr_incrementals fuel l target cur).
  Proof.
    induction fuel as [|f IH]; intros; cbn; [reflexivity|].
    rewrite find_map by (intro b; now rewrite e_parent, e_ts, e_kind).
    destruct (find _ l) as [b|]; cbn; [|reflexivity]. now rewrite e_id, IH.
  Qed.

  Lemma restore_pitr_map st t ts o : restore_pitr (map e st) t ts o = restore_pitr st t ts o.
  Proof.
    unfold restore_pitr, pitr_chain. rewrite list_backups_map, find_map by (intro b; now rewrite e_ts, is_full_e).
    destruct (find _ (list_backups st)) as [f|]; cbn; [|reflexivity].
    rewrite map_length, e_id, pitr_incr_map. apply (restore_chain_map (f :: _)).
  Qed.
End Erase.

Definition erase (keep_ts : bool) (b : backup) : backup :=
  mkBackup (b_id b) (b_parent b) (b_kind b) (if keep_ts then b_ts b else 0) (b_files b) (b_ok b) None None 0.

Lemma erase_same : forall k st st',
  Forall2 (fun b b' => same_core b b' /\ (k = true -> b_ts b = b_ts b')) st st' -> map (erase k) st = map (erase k) st'.
Proof.
  intros k st st' HF; induction HF as [|x x' r r' [HX HT] HF IH]; cbn; [reflexivity|]. rewrite IH. f_equal.
  unfold same_core, core in HX. injection HX as Ei Ep Ek Ef Eo. unfold erase. rewrite Ei, Ep, Ek, Ef, Eo.
  destruct k; [now rewrite HT|reflexivity].
Qed.

Lemma erase_congr : forall {X} k (F : store -> X) st st',
  (forall s, F (map (erase k) s) = F s) ->
  Forall2 (fun b b' => same_core b b' /\ (k = true -> b_ts b = b_ts b')) st st' -> F st = F st'.
Proof. intros X k F st st' E HF. now rewrite <- (E st), <- (E st'), (erase_same k st st' HF). Qed.

Theorem metadata_irrelevant_by_id : forall st st' t id o,
  Forall2 same_core st st' -> restore_by_id st t id o = restore_by_id st' t id o.
Proof.
  intros st st' t id o HS.
  apply (erase_congr false (fun s => restore_by_id s t id o)); [intro; apply restore_by_id_map; reflexivity|].
  apply (Forall2_impl same_core); [intros a b H; split; [exact H|discriminate]|exact HS].
Qed.

Theorem metadata_irrelevant_pitr : forall st st' t ts o,
  Forall2 same_core_ts st st' -> restore_pitr st t ts o = restore_pitr st' t ts o.
Proof.
  intros st st' t ts o HS.
  apply (erase_congr true (fun s => restore_pitr s t ts o)); [intro; apply restore_pitr_map; reflexivity|].
  apply (Forall2_impl same_core_ts); [intros a b [H1 H2]; split; auto|exact HS].
Qed.

Lemma ins_by_In : forall {A} (key : A -> N) x y l, In y (ins_by key x l) <-> In y (x :: l).
Proof.
  induction l as [|z r IH]; cbn; [tauto|].
  destruct (key x <? key z); cbn; [tauto|]. rewrite IH. cbn. tauto.
Qed.

Lemma sort_by_In : forall {A} (key : A -> N) y l, In y (sort_by key l) <-> In y l.
Proof.
  induction l as [|z r IH]; cbn; [tauto|].
  unfold sort_by in *; cbn. rewrite ins_by_In. cbn. now rewrite IH.
Qed.

Lemma sort_by_sorted_id : forall l, StronglySorted N.lt l -> sort_by (fun s => s) l = l.
Proof.
  induction l as [|x r IH]; intros HS; [reflexivity|].
  inversion HS as [|? ? HS' HF]; subst. unfold sort_by in *; cbn. rewrite (IH HS').
  destruct r as [|y r']; [reflexivity|]. cbn.
  inversion HF as [|? ? HL _]; subst. apply N.ltb_lt in HL; rewrite HL; reflexivity.
Qed.

Lemma dedup_sorted_id : forall l, StronglySorted N.lt l -> dedup l = l.
Proof.
  induction l as [|x r IH]; intros HS; [reflexivity|].
  inversion HS as [|? ? HS' HF]; subst. cbn.
  destruct r as [|y r']; [reflexivity|].
  inversion HF as [|? ? HL _]; subst.
  assert (E : (x =? y) = false) by (apply N.eqb_neq; lia). rewrite E. f_equal. apply IH; exact HS'.
Qed.

Lemma merge_segs_id : forall listed extra,
  StronglySorted N.lt listed -> (forall s, In s extra -> In s listed) -> merge_segs listed extra = listed.
Proof.
  intros listed extra HS HI; unfold merge_segs.
  rewrite filter_none.
  - rewrite app_nil_r, sort_by_sorted_id by exact HS. apply dedup_sorted_id; exact HS.
  - intros x HX. apply HI in HX. apply memN_In in HX. rewrite HX; reflexivity.
Qed.

Lemma wal_entries_In : forall d s x, In (s, x) (wal_entries d) <-> In (FWal s, x) d.
Proof.
  induction d as [|[k v] r IH]; intros s x; cbn; [tauto|].
  destruct k; cbn; rewrite IH; intuition congruence.
Qed.

Lemma wal_on_disk_In : forall d s x, In (s, x) (wal_on_disk d) <-> In (FWal s, x) d.
Proof. intros; unfold wal_on_disk; rewrite sort_by_In; apply wal_entries_In. Qed.

Lemma map_opt_ext_in : forall {A B} (f g : A -> option B) l,
  (forall x, In x l -> f x = g x) -> map_opt f l = map_opt g l.
Proof.
  induction l as [|x r IH]; intros H; cbn; [reflexivity|].
  rewrite (H x (or_introl eq_refl)), IH; [reflexivity|]. intros y HY; apply H; right; exact HY.
Qed.

Lemma map_opt_some : forall {A B} (f : A -> option B) l,
  (forall x, In x l -> f x <> None) -> map_opt f l <> None.
Proof.
  induction l as [|x r IH]; intros H; cbn; [discriminate|].
  destruct (f x) eqn:E; [|exfalso; apply (H x (or_introl eq_refl)); exact E].
  destruct (map_opt f r) eqn:E2; [discriminate|].
  exfalso; apply IH; [|reflexivity]. intros y HY; apply H; right; exact HY.
Qed.

(* A quiescent directory written by the engine: unique names; a parsable MANIFEST whose segment list
   is in increasing id order and names exactly the WAL files on disk; the snapshot it names exists. *)
Definition wf_sdir (d : sdir) (m : manifest) : Prop :=
  NoDup (map fst d) /\
  (exists mt, sget d FManifest = Some (CMan m, mt)) /\
  StronglySorted N.lt (m_segs m) /\
  (forall s, In s (m_segs m) <-> exists x, sget d (FWal s) = Some x) /\
  (forall s, m_snap m = Some s -> exists x, sget d (FSnap s) = Some x).

Definition snap_part (d : sdir) (m : manifest) : tdir :=
  match m_snap m with
  | None => []
  | Some s => match sget d (FSnap s) with Some (c, _) => [(FSnap s, c)] | None => [] end
  end.

Definition seg_part (d : sdir) (segs : list N) : tdir :=
  flat_map (fun s => match sget d (FWal s) with Some (c, _) => [(FWal s, c)] | None => [] end) segs.

(* exactly what recovery reads from d: the snapshot named by the manifest, the manifest, the listed segments *)
Definition view_files (d : sdir) (m : manifest) : tdir :=
  snap_part d m ++ (FManifest, CMan m) :: seg_part d (m_segs m).

Lemma set_segs_id : forall m, set_segs m (m_segs m) = m.
Proof. intros [a b c e]; reflexivity. Qed.

Lemma map_opt_wal_member : forall d segs,
  (forall s, In s segs -> exists x, sget d (FWal s) = Some x) ->
  map_opt (wal_member d) segs = Some (seg_part d segs) /\ map fst (seg_part d segs) = map FWal segs.
Proof.
  induction segs as [|s r IH]; intros H; cbn; [split; reflexivity|].
  destruct (H s (or_introl eq_refl)) as [[c mt] E].
  destruct IH as [IH1 IH2]; [intros y HY; apply H; right; exact HY|].
  unfold wal_member at 1. rewrite E, IH1. fold (seg_part d r). cbn [app map fst]. rewrite IH2. split; reflexivity.
Qed.

Lemma uniq_names_id : forall l seen,
  NoDup (map fst l) -> (forall n, In n seen -> ~ In n (map fst l)) -> uniq_names seen l = l.
Proof.
  induction l as [|[n c] r IH]; intros seen ND HS; cbn; [reflexivity|].
  cbn in ND; inversion ND as [|? ? NI ND']; subst.
  assert (E : existsb (fname_eqb n) seen = false).
  { destruct (existsb (fname_eqb n) seen) eqn:E; [|reflexivity].
    apply existsb_exists in E; destruct E as [x [HX HE]]. destruct (fname_eqb_spec n x) as [<-|]; [|discriminate].
    destruct (HS n HX); left; reflexivity. }
  rewrite E. f_equal. apply IH; [exact ND'|].
  intros x [HX|HX] HI.
  - subst x; exact (NI HI).
  - apply (HS x HX); right; exact HI.
Qed.

Lemma NoDup_map_FWal : forall l, NoDup l -> NoDup (map FWal l).
Proof.
  induction l as [|x r IH]; intros ND; cbn; [constructor|].
  inversion ND as [|? ? NI ND']; subst. constructor; [|apply IH; exact ND'].
  intro HI; apply in_map_iff in HI; destruct HI as [y [E HY]]; inversion E; subst; exact (NI HY).
Qed.

Lemma view_files_nodup : forall d m, wf_sdir d m -> NoDup (map fst (view_files d m)).
Proof.
  intros d m (ND & _ & HS & HL & _). unfold view_files.
  destruct (map_opt_wal_member d (m_segs m)) as [_ EN]; [intros s HI; apply HL; exact HI|].
  rewrite map_app; cbn. rewrite EN.
  assert (NW : NoDup (map FWal (m_segs m))) by (apply NoDup_map_FWal, sorted_lt_nodup; exact HS).
  assert (NM : ~ In FManifest (map FWal (m_segs m))).
  { intro HI; apply in_map_iff in HI; destruct HI as [y [E _]]; discriminate. }
  unfold snap_part. destruct (m_snap m) as [s|]; cbn; [|constructor; auto].
  destruct (sget d (FSnap s)) as [[c mt]|]; cbn; [|constructor; auto].
  constructor; [|constructor; auto].
  intros [E|HI]; [discriminate|]. apply in_map_iff in HI; destruct HI as [y [E _]]; discriminate.
Qed.

Lemma wal_on_disk_ids : forall d s, NoDup (map fst d) ->
  (In s (map fst (wal_on_disk d)) <-> exists x, sget d (FWal s) = Some x).
Proof.
  intros d s ND; split.
  - intros HI; apply in_map_iff in HI; destruct HI as [[s' x] [E HI]]; cbn in E; subst s'.
    apply wal_on_disk_In in HI. exists x. apply in_sget_nodup; auto.
  - intros [x HX]. apply in_map_iff; exists (s, x); split; [reflexivity|].
    apply wal_on_disk_In. apply sget_in; exact HX.
Qed.

Lemma create_full_files_wf : forall d m, wf_sdir d m ->
  create_full_files d = Ok (view_files d m, max_list (m_segs m), m_snap m).
Proof.
  intros d m WF. pose proof (view_files_nodup d m WF) as NDV.
  destruct WF as (ND & [mt EM] & HS & HL & HSN).
  unfold create_full_files. rewrite EM.
  assert (HD : forall s, In s (map fst (wal_on_disk d)) <-> In s (m_segs m))
    by (intro s; rewrite HL; apply wal_on_disk_ids, ND).
  assert (E1 : forallb (fun s => memN s (map fst (wal_on_disk d))) (m_segs m) = true).
  { apply forallb_forall; intros s HI. apply memN_In, HD; exact HI. }
  rewrite E1; cbn [negb].
  rewrite merge_segs_id; [|exact HS|intros s HI; apply HD; exact HI].
  rewrite set_segs_id.
  destruct (map_opt_wal_member d (m_segs m)) as [EW _]; [intros s HI; apply HL; exact HI|].
  rewrite EW. unfold view_files, snap_part in *.
  destruct (m_snap m) as [s|] eqn:ES; [destruct (HSN s eq_refl) as [[c mt'] E]; rewrite E in *|];
    cbn [app finish_full] in *; (rewrite uniq_names_id; [reflexivity|exact NDV|intros n []]).
Qed.

(* the snapshot member of an archive whose metadata records snapshot_file = sf; snap_part d m is the
   case sf = m_snap m *)
Definition snap_member (d : sdir) (sf : option N) : tdir :=
  match sf with
  | Some s => match sget d (FSnap s) with Some (c, _) => [(FSnap s, c)] | None => [] end
  | None => []
  end.

Lemma snap_member_In : forall d sf n c,
  In (n, c) (snap_member d sf) <-> exists s mt, n = FSnap s /\ sf = Some s /\ sget d (FSnap s) = Some (c, mt).
Proof.
  intros d sf n c. unfold snap_member. split.
  - destruct sf as [s|]; [|intros []]. destruct (sget d (FSnap s)) as [[c0 mt]|] eqn:E; [|intros []].
    intros [H|[]]. inversion H; subst. eauto.
  - intros (s & mt & -> & -> & E). rewrite E. now left.
Qed.

Lemma seg_part_In : forall d segs n c,
  In (n, c) (seg_part d segs) <-> exists s mt, n = FWal s /\ In s segs /\ sget d (FWal s) = Some (c, mt).
Proof.
  intros d segs n c. unfold seg_part. rewrite in_flat_map. split.
  - intros (s & HS & HI). destruct (sget d (FWal s)) as [[c0 mt]|] eqn:E; [|destruct HI].
    destruct HI as [H|[]]. inversion H; subst. eauto.
  - intros (s & mt & -> & HS & E). exists s. rewrite E. split; [exact HS|now left].
Qed.

(* the members of an archive taken from directory d: the segments that `sel` selects, the manifest, and
   the snapshot recorded as snapshot_file *)
Section Members.
  Variables (d : sdir) (m : manifest) (sel : N * (content * N) -> bool) (sf : option N).

  Definition member (n : fname) (c : content) : Prop :=
    match n with
    | FManifest => c = CMan m
    | FWal s => exists mt, sget d (FWal s) = Some (c, mt) /\ sel (s, (c, mt)) = true
    | FSnap s => sf = Some s /\ exists mt, sget d (FSnap s) = Some (c, mt)
    | FOther _ => False
    end.

  Lemma member_fun n c c' : member n c -> member n c' -> c' = c.
  Proof.
    destruct n; cbn; [congruence| | |contradiction].
    - intros (_ & mt & E) (_ & mt' & E'); congruence.
    - intros (mt & E & _) (mt' & E' & _); congruence.
  Qed.

  Lemma members_shape W :
    (forall n c, In (n, c) W <-> exists s mt, n = FWal s /\ sget d (FWal s) = Some (c, mt) /\ sel (s, (c, mt)) = true) ->
    forall n c, In (n, c) (snap_member d sf ++ (FManifest, CMan m) :: W) <-> member n c.
  Proof.
    intros HW n c. rewrite in_app_iff. cbn [In]. rewrite HW, snap_member_In. split.
    - intros [(s & mt & -> & H)|[E|(s & mt & -> & H)]];
        [destruct H; cbn; eauto|inversion E; reflexivity|cbn; eauto].
    - destruct n; cbn [member];
        [intros ->; auto|intros (H1 & mt & H2); left; eauto|intros (mt & H); right; right; eauto|intros []].
  Qed.
End Members.

Lemma view_files_members : forall d m, wf_sdir d m ->
  forall n c, In (n, c) (view_files d m) <-> member d m (fun _ => true) (m_snap m) n c.
Proof.
  intros d m (_ & _ & _ & HL & _). apply (members_shape d m _ (m_snap m)). intros n c. rewrite seg_part_In.
  split; intros (s & mt & -> & H); exists s, mt; (split; [reflexivity|]).
  - tauto.
  - split; [apply HL; eexists|]; apply H.
Qed.

Lemma tget_view : forall d m n c, wf_sdir d m -> member d m (fun _ => true) (m_snap m) n c ->
  tget (view_files d m) n = Some c.
Proof. intros d m n c WF H. apply in_tget_nodup; [apply view_files_nodup, WF|apply view_files_members; assumption]. Qed.

Lemma wf_restorable : forall d m, wf_sdir d m -> restorable (strip d) = true.
Proof.
  intros d m (_ & [mt EM] & _ & HL & HSE). unfold restorable, recovery_view.
  rewrite tget_strip, EM; cbn [option_map fst].
  destruct (map_opt (fun s0 => tget (strip d) (FWal s0)) (m_segs m)) eqn:E2.
  2:{ exfalso; revert E2; apply map_opt_some. intros x HI. apply HL in HI; destruct HI as [[c' mt''] E3].
      rewrite tget_strip, E3; discriminate. }
  destruct (m_snap m) as [s|] eqn:ES; [|reflexivity].
  destruct (HSE s eq_refl) as [[c mt'] E]. rewrite tget_strip, E. reflexivity.
Qed.

Lemma recovery_view_matches : forall t d m, wf_sdir d m ->
  tget t FManifest = Some (CMan m) ->
  (forall s c mt, sget d (FWal s) = Some (c, mt) -> tget t (FWal s) = Some c) ->
  (forall s, m_snap m = Some s -> tget t (FSnap s) = option_map fst (sget d (FSnap s))) ->
  recovery_view t = recovery_view (strip d) /\ restorable t = true.
Proof.
  intros t d m WF HM HW HSN. pose proof WF as (_ & [mt EM] & _ & HL & _).
  assert (EQ : recovery_view t = recovery_view (strip d)).
  { unfold recovery_view. rewrite HM, tget_strip, EM; cbn [option_map fst].
    rewrite (map_opt_ext_in (fun s => tget t (FWal s)) (fun s => tget (strip d) (FWal s)) (m_segs m)).
    - destruct (m_snap m) as [s|] eqn:ES; [|reflexivity]. rewrite (HSN s eq_refl), tget_strip; reflexivity.
    - intros s HI. apply HL in HI; destruct HI as [[c mt'] E]. rewrite (HW s c mt' E), tget_strip, E; reflexivity. }
  split; [exact EQ|]. unfold restorable. rewrite EQ. exact (wf_restorable d m WF).
Qed.

Lemma extract_is_put_all : forall t b, extract t b = put_all t (b_files b).
Proof. reflexivity. Qed.

(* C12, full backups: restoring a verified full backup into an empty target yields exactly the
   recovery-relevant files of the source directory at backup time, nothing else. *)
Theorem full_restore_exact : forall d m id ts aux o,
  wf_sdir d m -> o_dry o = false ->
  exists b, create_full d id ts aux = Ok b /\
            b_files b = view_files d m /\
            restore_by_id [b] [] id o = (None, view_files d m) /\
            recovery_view (view_files d m) = recovery_view (strip d) /\
            restorable (view_files d m) = true.
Proof.
  intros d m id ts aux o WF HD.
  unfold create_full. rewrite (create_full_files_wf d m WF).
  eexists; split; [reflexivity|]. cbn [b_files]. split; [reflexivity|]. split.
  - unfold restore_by_id, build_chain. cbn [find_b b_id]. rewrite N.eqb_refl. cbn [is_full b_kind bkind_eqb].
    rewrite restore_chain_eq, HD. cbn [forallb b_ok negb andb].
    unfold extract_chain; cbn [fold_left]. rewrite extract_is_put_all; cbn [b_files].
    rewrite put_all_nodup; [reflexivity|]. cbn [app]. apply view_files_nodup; exact WF.
  - apply recovery_view_matches with (m := m); auto.
    + apply tget_view; [exact WF|reflexivity].
    + intros s c mt E. apply tget_view; [exact WF|cbn; eauto].
    + intros s ES. pose proof WF as (_ & _ & _ & _ & HSE). destruct (HSE s ES) as [[c mt] E].
      rewrite E. apply tget_view; [exact WF|cbn; eauto].
Qed.

Lemma optN_eqb_eq : forall a b, optN_eqb a b = true -> a = b.
Proof. intros [x|] [y|]; cbn; intro H; try discriminate; auto. apply N.eqb_eq in H; subst; reflexivity. Qed.

Lemma listN_eqb_eq : forall a b, listN_eqb a b = true -> a = b.
Proof.
  induction a as [|x r IH]; intros [|y s]; cbn; intro H; try discriminate; auto.
  apply andb_true_iff in H; destruct H as [H1 H2]. apply N.eqb_eq in H1; subst. f_equal; auto.
Qed.

Lemma manifest_eqb_eq : forall a b, manifest_eqb a b = true -> a = b.
Proof.
  intros [a1 a2 a3 a4] [b1 b2 b3 b4]; unfold manifest_eqb; cbn. intro H.
  apply andb_prop in H as [H H4]. apply andb_prop in H as [H H3]. apply andb_prop in H as [H1 H2].
  apply optN_eqb_eq in H1, H2. apply listN_eqb_eq in H3. apply N.eqb_eq in H4. subst; reflexivity.
Qed.

Lemma content_eqb_eq : forall a b, content_eqb a b = true -> a = b.
Proof.
  intros [x|x] [y|y]; cbn; intro H; try discriminate.
  - apply manifest_eqb_eq in H; subst; reflexivity.
  - apply N.eqb_eq in H; subst; reflexivity.
Qed.

Lemma nodup_names_ok : forall l, nodup_names l = true -> NoDup l.
Proof.
  induction l as [|x r IH]; cbn; intro H; [constructor|].
  apply andb_true_iff in H; destruct H as [H1 H2]. constructor; [|auto].
  intro HI. apply negb_true_iff in H1.
  assert (E : existsb (fname_eqb x) r = true) by (apply existsb_exists; exists x; split; [exact HI|apply fname_eqb_refl]).
  congruence.
Qed.

Lemma sorted_lt_ok : forall l, sorted_lt l = true -> StronglySorted N.lt l.
Proof.
  intros l H. apply Sorted_StronglySorted; [intros a b c; apply N.lt_trans|].
  induction l as [|x r IH]; [constructor|].
  cbn in H. destruct r as [|y r'].
  - constructor; constructor.
  - apply andb_true_iff in H; destruct H as [H1 H2]. constructor; [apply IH; exact H2|].
    constructor. apply N.ltb_lt; exact H1.
Qed.

Lemma is_some_ex : forall {A} (o : option A), is_some o = true -> exists x, o = Some x.
Proof. intros A [x|]; cbn; intro H; [eexists; reflexivity|discriminate]. Qed.

Lemma wf_sdirb_ok : forall d m, wf_sdirb d m = true -> wf_sdir d m.
Proof.
  intros d m H; unfold wf_sdirb in H.
  apply andb_prop in H as [H H6]. apply andb_prop in H as [H H5]. apply andb_prop in H as [H H4].
  apply andb_prop in H as [H H3]. apply andb_prop in H as [H1 H2].
  assert (ND : NoDup (map fst d)) by (apply nodup_names_ok; exact H1).
  repeat split.
  - exact ND.
  - destruct (sget d FManifest) as [[[m'|c] mt]|]; try discriminate.
    apply manifest_eqb_eq in H2; subst; eexists; reflexivity.
  - apply sorted_lt_ok; exact H3.
  - intros HI. rewrite forallb_forall in H4. apply is_some_ex; apply H4; exact HI.
  - intros [x HX]. rewrite forallb_forall in H5.
    apply memN_In. apply (H5 (s, x)). apply wal_entries_In. apply sget_in; exact HX.
  - intros s ES. rewrite ES in H6. apply is_some_ex; exact H6.
Qed.


(* Premise about how the engine's directory evolves between two backups: a WAL segment that the
   incremental does NOT select (id below the parent's recorded maximum, or equal to it with an
   mtime older than the parent's timestamp) is unchanged since the parent's directory state.
   (Closed segments are immutable; appending to the active one moves its mtime forward.) *)
Definition evolves (dp : sdir) (bp : backup) (d : sdir) : Prop :=
  forall s c mt, sget d (FWal s) = Some (c, mt) ->
    incr_selected (b_ts bp) (b_max_wal bp) (s, (c, mt)) = false ->
    exists mt0, sget dp (FWal s) = Some (c, mt0).

(* Premise: a snapshot name denotes one content (snapshots are written once under a fresh id). *)
Definition snaps_agree (sc : N -> content) (d : sdir) : Prop :=
  forall s c mt, sget d (FSnap s) = Some (c, mt) -> c = sc s.

Lemma evolvesb_ok : forall dp bp d, NoDup (map fst d) ->
  evolvesb dp (b_ts bp) (b_max_wal bp) d = true -> evolves dp bp d.
Proof.
  intros dp bp d ND H s c mt E HSel. unfold evolvesb in H. rewrite forallb_forall in H.
  specialize (H (s, (c, mt))). cbn [fst snd] in H.
  rewrite HSel in H; cbn [orb] in H.
  assert (HI : In (s, (c, mt)) (wal_entries d)) by (apply wal_entries_In, sget_in; exact E).
  specialize (H HI). destruct (sget dp (FWal s)) as [[c0 mt0]|]; [|discriminate].
  apply content_eqb_eq in H; subst; eexists; reflexivity.
Qed.

Definition snaps_agreeb (sc : N -> content) (d : sdir) : bool :=
  forallb (fun e => match fst e with FSnap s => content_eqb (fst (snd e)) (sc s) | _ => true end) d.

Lemma snaps_agreeb_ok : forall sc d, snaps_agreeb sc d = true -> snaps_agree sc d.
Proof.
  intros sc d H s c mt E. unfold snaps_agreeb in H. rewrite forallb_forall in H.
  specialize (H (FSnap s, (c, mt)) (sget_in _ _ _ E)). cbn in H. apply content_eqb_eq; exact H.
Qed.

(* the store holds these records unaltered, or not at all *)
Definition store_sub (st : store) (rch : list backup) : Prop :=
  forall b, In b rch -> find_b st (b_id b) = Some b \/ find_b st (b_id b) = None.

(* chain_ok sc rch d m: rch (newest first) is a full backup followed by incrementals, each taken by the
   modelled code from a well-formed directory that evolved from its parent's, with a backup directory
   that held the parent's metadata and held the older ancestors' metadata unaltered or not at all;
   d, m are the directory and manifest of the newest one. *)
Inductive chain_ok (sc : N -> content) : list backup -> sdir -> manifest -> Prop :=
| co_full : forall d m b id ts aux,
    wf_sdir d m -> snaps_agree sc d -> create_full d id ts aux = Ok b -> chain_ok sc [b] d m
| co_incr : forall rch dp mp bp d m b st id ts aux,
    chain_ok sc (bp :: rch) dp mp -> wf_sdir d m -> snaps_agree sc d -> evolves dp bp d ->
    find_b st (b_id bp) = Some bp -> store_sub st rch ->
    create_incremental st d (b_id bp) id ts aux = Ok b ->
    chain_ok sc (b :: bp :: rch) d m.

Inductive linked : list backup -> Prop :=
| ln_full : forall b, b_kind b = Full -> b_parent b = None -> linked [b]
| ln_incr : forall b bp r, b_kind b = Incremental -> b_parent b = Some (b_id bp) ->
    linked (bp :: r) -> linked (b :: bp :: r).

Definition covers (t : tdir) (d : sdir) : Prop :=
  forall s c mt, sget d (FWal s) = Some (c, mt) -> tget t (FWal s) = Some c.

(* newest snapshot recorded (= shipped) by a member of the chain *)
Fixpoint carried (rch : list backup) : option N :=
  match rch with
  | [] => None
  | b :: r => match b_snapfile b with Some s => Some s | None => carried r end
  end.

Lemma create_full_inv : forall d m id ts aux b, wf_sdir d m -> create_full d id ts aux = Ok b ->
  b = mkBackup id None Full ts (view_files d m) true (max_list (m_segs m)) (m_snap m) aux.
Proof.
  intros d m id ts aux b WF H. unfold create_full in H. rewrite (create_full_files_wf d m WF) in H.
  inversion H; reflexivity.
Qed.

Definition incr_wals (d : sdir) (pts : N) (pmax : option N) : tdir :=
  map (fun e => (FWal (fst e), fst (snd e))) (filter (incr_selected pts pmax) (wal_on_disk d)).

Lemma incr_wals_In : forall d pts pmax n c, NoDup (map fst d) ->
  (In (n, c) (incr_wals d pts pmax) <->
   exists s mt, n = FWal s /\ sget d (FWal s) = Some (c, mt) /\ incr_selected pts pmax (s, (c, mt)) = true).
Proof.
  intros d pts pmax n c ND. unfold incr_wals. rewrite in_map_iff. split.
  - intros ([s [c' mt]] & E & HI). cbn in E. inversion E; subst. apply filter_In in HI. destruct HI as [HI HS].
    apply wal_on_disk_In in HI. exists s, mt. auto using in_sget_nodup.
  - intros (s & mt & -> & E & HS). exists (s, (c, mt)). split; [reflexivity|].
    apply filter_In. split; [apply wal_on_disk_In, sget_in, E|exact HS].
Qed.

Lemma create_incr_files_wf : forall d m pts pmax csnap files mx sf, wf_sdir d m ->
  create_incr_files d pts pmax csnap = Ok (files, mx, sf) ->
  files = snap_member d sf ++ (FManifest, CMan m) :: incr_wals d pts pmax /\
  (sf = m_snap m \/ sf = None /\ csnap = m_snap m).
Proof.
  intros d m pts pmax csnap files mx sf WF H. destruct WF as (ND & [mt EM] & HS & HL & _).
  unfold create_incr_files in H. rewrite EM in H. unfold incr_wals, snap_member.
  destruct (filter (incr_selected pts pmax) (wal_on_disk d)) as [|e r] eqn:ES; [discriminate|].
  rewrite merge_segs_id in H.
  - rewrite set_segs_id in H.
    destruct (m_snap m) as [s|] eqn:EMS; [destruct (optN_eqb csnap (Some s)) eqn:EO|].
    + apply optN_eqb_eq in EO. inversion H; subst. auto.
    + destruct (sget d (FSnap s)) as [[c mt']|] eqn:EG; [|discriminate]. inversion H; subst. rewrite EG. auto.
    + inversion H; subst. auto.
  - exact HS.
  - intros s HI. apply HL. apply in_map_iff in HI; destruct HI as [[s' x] [E HI]]; cbn in E; subst s'.
    rewrite <- ES in HI. apply filter_In in HI; destruct HI as [HI _].
    apply wal_on_disk_In in HI. exists x. apply in_sget_nodup; auto.
Qed.

Lemma incr_files_members : forall d m pts pmax csnap files mx sf, wf_sdir d m ->
  create_incr_files d pts pmax csnap = Ok (files, mx, sf) ->
  (forall n c, In (n, c) files <-> member d m (incr_selected pts pmax) sf n c) /\
  (sf = m_snap m \/ sf = None /\ csnap = m_snap m).
Proof.
  intros d m pts pmax csnap files mx sf WF H.
  destruct (create_incr_files_wf _ _ _ _ _ _ _ _ WF H) as [-> HS]. split; [|exact HS].
  apply members_shape. intros n c. apply incr_wals_In, WF.
Qed.

Lemma chain_linked : forall sc rch d m, chain_ok sc rch d m ->
  linked rch /\ Forall (fun b => b_ok b = true) rch.
Proof.
  intros sc rch d m H;
    induction H as [d m b id ts aux WF HSA HC | rch dp mp bp d m b st id ts aux HP IH WF HSA HE HF HSub HC].
  - rewrite (create_full_inv _ _ _ _ _ _ WF HC). split; [constructor; reflexivity|constructor; auto].
  - destruct IH as [IL IO]. unfold create_incremental in HC. rewrite HF in HC.
    destruct (create_incr_files d (b_ts bp) (b_max_wal bp) _) as [[[files mx] sf]|e]; [|discriminate].
    inversion HC; subst b. split; [constructor; auto|constructor; auto].
Qed.

Lemma chain_snapshot_some : forall fuel st s anc, chain_snapshot fuel st (Some s) anc = Some s.
Proof. intros [|f] st s anc; reflexivity. Qed.

Lemma chain_snapshot_none : forall fuel st, chain_snapshot fuel st None None = None.
Proof. intros [|f] st; reflexivity. Qed.

(* the walk over the ancestors' metadata can only report a snapshot that the chain really carries *)
Lemma walk_carried : forall st r x fuel s,
  linked (x :: r) -> store_sub st r ->
  chain_snapshot fuel st (b_snapfile x) (b_parent x) = Some s -> carried (x :: r) = Some s.
Proof.
  intros st r; induction r as [|y r' IH]; intros x fuel s HL HSub HW; cbn [carried].
  - destruct (b_snapfile x) as [s0|]; [rewrite chain_snapshot_some in HW; exact HW|].
    inversion HL as [? ? HP|]; subst. rewrite HP, chain_snapshot_none in HW; discriminate.
  - destruct (b_snapfile x) as [s0|]; [rewrite chain_snapshot_some in HW; exact HW|].
    inversion HL as [|? ? ? HK HP HL']; subst. rewrite HP in HW.
    destruct fuel as [|f]; [discriminate|]. cbn [chain_snapshot] in HW.
    destruct (HSub y (or_introl eq_refl)) as [E|E]; rewrite E in HW; [|discriminate].
    apply (IH y f s HL'); [|exact HW].
    intros b HI; apply HSub; right; exact HI.
Qed.

Lemma extract_chain_snoc : forall t l b, extract_chain t (l ++ [b]) = extract (extract_chain t l) b.
Proof. intros; unfold extract_chain; rewrite fold_left_app; reflexivity. Qed.

Lemma extract_members : forall sc d m sel sf files t,
  wf_sdir d m -> snaps_agree sc d ->
  (forall n c, In (n, c) files <-> member d m sel sf n c) ->
  (forall s c mt, sget d (FWal s) = Some (c, mt) -> sel (s, (c, mt)) = false -> tget t (FWal s) = Some c) ->
  (sf = m_snap m \/ sf = None /\ forall s, m_snap m = Some s -> tget t (FSnap s) = Some (sc s)) ->
  covers (put_all t files) d /\ tget (put_all t files) FManifest = Some (CMan m) /\
  (forall s, m_snap m = Some s -> tget (put_all t files) (FSnap s) = Some (sc s)) /\
  (sf = None -> forall s, tget (put_all t files) (FSnap s) = tget t (FSnap s)).
Proof.
  intros sc d m sel sf files t WF HSA M HU HS.
  assert (P : forall n c, member d m sel sf n c -> tget (put_all t files) n = Some c).
  { intros n c H. apply put_all_written; [apply M, H|]. intros c' H'. apply M in H'. exact (member_fun _ _ _ _ n c c' H H'). }
  assert (Q : forall n, (forall c, ~ member d m sel sf n c) -> tget (put_all t files) n = tget t n).
  { intros n H. apply put_all_untouched. intros c HI. apply M in HI. exact (H c HI). }
  assert (Q4 : sf = None -> forall s, tget (put_all t files) (FSnap s) = tget t (FSnap s)).
  { intros -> s. apply Q. intros c [E _]. discriminate. }
  split; [|split; [|split]].
  - intros s c mt E. destruct (sel (s, (c, mt))) eqn:ESel; [apply P; cbn; eauto|].
    rewrite Q; [exact (HU s c mt E ESel)|]. intros c' (mt' & E' & HSel). rewrite E in E'. inversion E'; subst. congruence.
  - apply P. reflexivity.
  - intros s ES. destruct HS as [->|[-> HT]]; [|rewrite Q4; auto].
    destruct WF as (_ & _ & _ & _ & HSE). destruct (HSE s ES) as [[c mt] E].
    rewrite <- (HSA s c mt E). apply P. cbn. eauto.
  - exact Q4.
Qed.

Lemma chain_invariant : forall sc rch d m, chain_ok sc rch d m ->
  let t := extract_chain [] (rev rch) in
  covers t d /\ tget t FManifest = Some (CMan m) /\
  (forall s, m_snap m = Some s -> tget t (FSnap s) = Some (sc s)) /\
  (forall s, carried rch = Some s -> tget t (FSnap s) = Some (sc s)).
Proof.
  intros sc rch d m H;
    induction H as [d m b id ts aux WF HSA HC | rch dp mp bp d m b st id ts aux HP IH WF HSA HE HF HSub HC]; cbn zeta in *.
  - rewrite (create_full_inv _ _ _ _ _ _ WF HC). cbn [rev app carried b_snapfile]. unfold extract_chain; cbn [fold_left].
    rewrite extract_is_put_all; cbn [b_files].
    destruct (extract_members sc d m _ _ _ [] WF HSA (view_files_members d m WF)) as (C & M & S & _);
      [discriminate|now left|].
    repeat split; auto. intros s E. apply S. destruct (m_snap m); [exact E|discriminate].
  - destruct IH as (IC & IM & IS & ICar). destruct (chain_linked _ _ _ _ HP) as [HLk _].
    unfold create_incremental in HC. rewrite HF in HC.
    destruct (create_incr_files d (b_ts bp) (b_max_wal bp) _) as [[[files mx] sf]|e] eqn:EC; [|discriminate].
    destruct (incr_files_members _ _ _ _ _ _ _ _ WF EC) as (M & HS).
    inversion HC; subst b; clear HC.
    cbn [rev] in *. rewrite extract_chain_snoc, extract_is_put_all; cbn [b_files carried b_snapfile].
    set (t := extract_chain [] (rev rch ++ [bp])) in *.
    destruct (extract_members sc d m _ sf files t WF HSA M) as (C & MM & S & U).
    + (* a segment that is not shipped again is unchanged since the parent's directory *)
      intros s c mt E ESel. destruct (HE s c mt E ESel) as [mt0 E0]. exact (IC s c mt0 E0).
    + (* no snapshot shipped although the manifest names one: the chain carries it already *)
      destruct HS as [HS|[-> HS]]; [now left|right]. split; [reflexivity|]. intros s ES. apply ICar.
      apply (walk_carried st rch bp (length st) s HLk HSub). now rewrite HS.
    + repeat split; auto. intros s. destruct sf as [s0|]; [|rewrite U by reflexivity; apply ICar].
      intros E. inversion E; subst s0. apply S. destruct HS as [HS|[HS _]]; [now symmetry|discriminate].
Qed.

Lemma extract_chain_source : forall l t n c, tget (extract_chain t l) n = Some c ->
  tget t n = Some c \/ exists b, In b l /\ In (n, c) (b_files b).
Proof.
  induction l as [|b r IH]; intros t n c H; [left; exact H|].
  unfold extract_chain in *; cbn [fold_left] in H. apply IH in H. destruct H as [H|[b' [HI HM]]].
  - rewrite extract_is_put_all in H. apply put_all_source in H. destruct H as [H|H]; [left; exact H|].
    right; exists b; split; [left; reflexivity|exact H].
  - right; exists b'; split; [right; exact HI|exact HM].
Qed.

(* The chain up to any backup contains the snapshot that backup's manifest names, with the content it
   has in the source directory (impossible before /repo 0a20737: see old_incremental_after_snapshot). *)
Theorem chain_contains_manifest_snapshot : forall sc rch d m s,
  chain_ok sc rch d m -> m_snap m = Some s ->
  tget (extract_chain [] (rev rch)) (FSnap s) = option_map fst (sget d (FSnap s)) /\
  (exists c mt, sget d (FSnap s) = Some (c, mt) /\ exists b, In b rch /\ In (FSnap s, c) (b_files b)).
Proof.
  intros sc rch d m s HC ES.
  destruct (chain_invariant _ _ _ _ HC) as (_ & _ & IS & _).
  assert (WF : wf_sdir d m) by (inversion HC; auto).
  assert (HSA : snaps_agree sc d) by (inversion HC; auto).
  pose proof WF as (_ & _ & _ & _ & HSE). destruct (HSE s ES) as [[c mt] E].
  pose proof (IS s ES) as HT. rewrite <- (HSA s c mt E) in HT.
  split; [rewrite E; exact HT|].
  exists c, mt; split; [exact E|].
  apply extract_chain_source in HT. destruct HT as [HT|[b [HI HM]]]; [discriminate|].
  exists b; split; [apply in_rev; exact HI|exact HM].
Qed.

Lemma find_b_In : forall st id b, find_b st id = Some b -> In b st /\ b_id b = id.
Proof.
  induction st as [|x r IH]; intros id b H; cbn in H; [discriminate|].
  destruct (b_id x =? id) eqn:E.
  - inversion H; subst; split; [left; reflexivity|apply N.eqb_eq; exact E].
  - destruct (IH id b H); split; [right|]; auto.
Qed.

Lemma chain_up_linked : forall st r cur acc fuel,
  linked (cur :: r) -> b_kind cur = Incremental ->
  (forall b, In b (cur :: r) -> find_b st (b_id b) = Some b) ->
  (length r <= fuel)%nat ->
  exists h c, chain_up fuel st cur acc = Ok (h :: c) /\ h :: c = rev r ++ acc /\ b_kind h = Full.
Proof.
  intros st r; induction r as [|bp r' IH]; intros cur acc fuel HL HK HF HLen.
  - inversion HL; subst. congruence.
  - inversion HL as [|? ? ? HKc HPc HL']; subst.
    destruct fuel as [|f]; [cbn in HLen; lia|]. cbn [chain_up]. rewrite HPc.
    rewrite (HF bp (or_intror (or_introl eq_refl))).
    unfold is_full. destruct (b_kind bp) eqn:EK; cbn [bkind_eqb].
    + inversion HL'; subst; [exists bp, acc; auto|congruence].
    + destruct (IH bp (bp :: acc) f HL' EK) as (h & c & E1 & E2 & E3);
        [intros b HI; apply HF; right; exact HI|cbn in HLen; lia|].
      exists h, c. cbn [rev]. rewrite <- app_assoc. auto.
Qed.

Lemma build_chain_linked : forall st rch tip,
  linked rch -> hd_error rch = Some tip ->
  (forall b, In b rch -> find_b st (b_id b) = Some b) ->
  NoDup (map b_id rch) ->
  build_chain st (b_id tip) = Ok (rev rch).
Proof.
  intros st rch tip HL HH HF ND.
  destruct rch as [|cur r]; [discriminate|]. cbn in HH; inversion HH; subst cur.
  unfold build_chain. rewrite (HF tip (or_introl eq_refl)).
  unfold is_full. destruct (b_kind tip) eqn:EK; cbn [bkind_eqb].
  - inversion HL; subst; [reflexivity|congruence].
  - assert (HLen : (length r <= length st)%nat).
    { assert (HN : NoDup (tip :: r)) by (eapply NoDup_map_inv; exact ND).
      assert (HI : incl (tip :: r) st).
      { intros b HB. apply HF in HB. apply find_b_In in HB; tauto. }
      pose proof (NoDup_incl_length HN HI) as HLe. cbn in HLe; lia. }
    destruct (chain_up_linked st r tip [tip] (length st) HL EK HF HLen) as (h & c & -> & E & HFull).
    rewrite HFull, E. reflexivity.
Qed.

(* The only class left: the metadata of a member of the chain is missing from the store the restore
   runs on (outside interference; prune can no longer cause it, see prune_keeps_parents). *)
Definition ancestor_missing (st : store) (rch : list backup) : Prop :=
  exists b, In b rch /\ find_b st (b_id b) = None.

Definition KnownC12 (st : store) (rch : list backup) : Prop := ancestor_missing st rch.

Theorem chain_restore_exact_present : forall sc st rch tip d m o,
  chain_ok sc rch d m -> hd_error rch = Some tip -> NoDup (map b_id rch) ->
  (forall b, In b rch -> find_b st (b_id b) = Some b) -> o_dry o = false ->
  exists t', restore_by_id st [] (b_id tip) o = (None, t') /\
             recovery_view t' = recovery_view (strip d) /\ restorable t' = true.
Proof.
  intros sc st rch tip d m o HC HH ND HF HD.
  destruct (chain_linked _ _ _ _ HC) as [HL HOk].
  exists (extract_chain [] (rev rch)). split.
  - unfold restore_by_id. rewrite (build_chain_linked st rch tip HL HH HF ND).
    assert (E : forallb b_ok (rev rch) = true).
    { apply forallb_forall. intros b HI. apply in_rev in HI. rewrite Forall_forall in HOk; auto. }
    rewrite restore_chain_eq, E, HD; reflexivity.
  - destruct (chain_invariant _ _ _ _ HC) as (IC & IM & IS & _).
    assert (WF : wf_sdir d m) by (inversion HC; auto).
    assert (HSA : snaps_agree sc d) by (inversion HC; auto).
    apply recovery_view_matches with (m := m); auto.
    intros s ES. rewrite (IS s ES).
    pose proof WF as (_ & _ & _ & _ & HSE). destruct (HSE s ES) as [[c mt] E].
    rewrite E; cbn. rewrite (HSA s c mt E); reflexivity.
Qed.

Lemma in_find_b : forall st b, NoDup (map b_id st) -> In b st -> find_b st (b_id b) = Some b.
Proof.
  induction st as [|x r IH]; intros b ND HI; [destruct HI|]. cbn. inversion ND as [|? ? NI ND']; subst.
  destruct HI as [->|HI].
  - now rewrite N.eqb_refl.
  - destruct (N.eqb_spec (b_id x) (b_id b)) as [E|_]; [|auto].
    destruct NI. rewrite E. now apply in_map.
Qed.

(* the keep set is closed under parent links (since /repo b41f57f) *)
Section KeepClosure.
Variables (now : N) (p : policy).

Definition retained_in (keep : list N) (b : backup) : bool := memN (b_id b) keep || young now p b.

Definition closed (l : list backup) (keep : list N) : Prop :=
  forall b pid, In b l -> retained_in keep b = true -> b_parent b = Some pid -> In pid keep.

Lemma keep_step_cases : forall keep b,
  (keep_step now p keep b = keep /\
   forall pid, retained_in keep b = true -> b_parent b = Some pid -> In pid keep) \/
  exists pid, b_parent b = Some pid /\ retained_in keep b = true /\ ~ In pid keep /\ keep_step now p keep b = keep ++ [pid].
Proof.
  intros keep b; unfold keep_step. fold (retained_in keep b).
  destruct (retained_in keep b) eqn:ER; [|left; split; [reflexivity|discriminate]].
  destruct (b_parent b) as [pid|]; [|left; split; [reflexivity|discriminate]].
  destruct (memN pid keep) eqn:EM; [left; split; [reflexivity|]; intros q _ [= <-]; apply memN_In, EM|].
  right; exists pid; repeat split; auto. intro HI; apply memN_In in HI; congruence.
Qed.

Lemma keep_pass_len : forall l keep, (length keep <= length (keep_pass now p l keep))%nat.
Proof.
  intros l keep. unfold keep_pass. apply (fold_left_inv _ (fun k => (length keep <= length k)%nat)); [|lia].
  intros k b H. destruct (keep_step_cases k b) as [[-> _]|(q & _ & _ & _ & ->)]; [exact H|rewrite app_length; lia].
Qed.

(* a pass that adds nothing certifies closure *)
Lemma keep_pass_stable : forall l keep, length (keep_pass now p l keep) = length keep -> closed l keep.
Proof.
  induction l as [|b0 r IH]; intros keep HLen b pid HI HR HP; [contradiction|].
  unfold keep_pass in *; cbn [fold_left] in HLen.
  pose proof (keep_pass_len r (keep_step now p keep b0)) as H1. unfold keep_pass in H1.
  destruct (keep_step_cases keep b0) as [[ES HC]|(q & _ & _ & _ & E)].
  2:{ rewrite E, app_length in *; cbn in *; lia. }
  rewrite ES in HLen. destruct HI as [->|HI]; [exact (HC pid HR HP)|exact (IH keep HLen b pid HI HR HP)].
Qed.

(* every pass appends parents of listed backups that it has not yet appended: at most one per backup *)
Definition parents (l : list backup) : list N :=
  flat_map (fun b => match b_parent b with Some q => [q] | None => [] end) l.

Lemma parents_len : forall l, (length (parents l) <= length l)%nat.
Proof. unfold parents. induction l as [|b r IH]; cbn; [lia|]. rewrite app_length. destruct (b_parent b); cbn; lia. Qed.

Definition grown (l : list backup) (keep0 k : list N) : Prop :=
  exists extra, k = keep0 ++ extra /\ NoDup extra /\ incl extra (parents l).

Lemma keep_pass_grown : forall l keep0 keep, grown l keep0 keep -> grown l keep0 (keep_pass now p l keep).
Proof.
  intros l keep0 keep. apply (fold_left_inv_in _ (grown l keep0)). intros k b HB (x & -> & ND & HU).
  destruct (keep_step_cases (keep0 ++ x) b) as [[-> _]|(q & HQ & _ & HN & ->)]; [exists x; auto|].
  exists (x ++ [q]). rewrite app_assoc. split; [reflexivity|]. split.
  - apply NoDup_snoc; [exact ND|]. intro H. apply HN, in_or_app. now right.
  - apply incl_app; [exact HU|]. intros y [<-|[]]. apply in_flat_map. exists b. rewrite HQ. split; [exact HB|now left].
Qed.

Lemma keep_close_closed : forall l keep0 fuel keep, grown l keep0 keep ->
  (length keep0 + length (parents l) - length keep < fuel)%nat -> closed l (keep_close fuel now p l keep).
Proof.
  intros l keep0; induction fuel as [|f IH]; intros keep HG HF; [lia|].
  cbn [keep_close]. destruct (Nat.eqb (length (keep_pass now p l keep)) (length keep)) eqn:EL.
  - apply keep_pass_stable, Nat.eqb_eq, EL.
  - apply Nat.eqb_neq in EL. pose proof (keep_pass_len l keep) as HLen.
    apply IH; [apply keep_pass_grown, HG|].
    destruct (keep_pass_grown l keep0 keep HG) as (x & E & ND & HU).
    pose proof (NoDup_incl_length ND HU). rewrite E, app_length in *. lia.
Qed.

Lemma keep_set_closed : forall l, closed l (keep_set now p l).
Proof.
  intros l. unfold keep_set. eapply keep_close_closed.
  - exists []. rewrite app_nil_r. split; [reflexivity|]. split; [constructor|intros x []].
  - pose proof (parents_len l). lia.
Qed.

End KeepClosure.

Lemma ins_desc_perm : forall x l, Permutation (ins_desc x l) (x :: l).
Proof.
  induction l as [|z r IH]; cbn; [reflexivity|]. destruct (b_ts z <=? b_ts x); [reflexivity|].
  rewrite IH. apply perm_swap.
Qed.

Lemma list_backups_perm : forall st, Permutation (list_backups st) st.
Proof.
  induction st as [|x r IH]; cbn; [reflexivity|]. unfold list_backups in *; cbn. now rewrite ins_desc_perm, IH.
Qed.

Lemma list_backups_In : forall st y, In y (list_backups st) <-> In y st.
Proof. intros st y; split; apply Permutation_in; [|symmetry]; apply list_backups_perm. Qed.

Lemma prune_store_In : forall now p st b, NoDup (map b_id st) ->
  (In b (prune_store now p st) <-> In b st /\ prune_deletes now p (list_backups st) b = false).
Proof.
  intros now p st b ND; unfold prune_store. rewrite filter_In. split; intros [HI H]; split; auto.
  - apply negb_true_iff, memN_false in H.
    destruct (prune_deletes now p (list_backups st) b) eqn:E; auto.
    exfalso; apply H. unfold prune_deleted. apply in_map_iff; exists b; split; auto.
    apply filter_In; split; [apply list_backups_In; exact HI|exact E].
  - apply negb_true_iff, memN_false. intro HD. unfold prune_deleted in HD.
    apply in_map_iff in HD; destruct HD as [z [EZ HZ]]. apply filter_In in HZ; destruct HZ as [HZI HZ].
    apply (proj1 (list_backups_In st z)) in HZI.
    rewrite (NoDup_map_inj b_id st z b ND HZI HI EZ) in HZ. congruence.
Qed.

(* C12: pruning never removes a backup that a retained backup depends on. *)
Theorem prune_keeps_parents : forall now p st b pid y,
  NoDup (map b_id st) -> In b (prune_store now p st) -> b_parent b = Some pid ->
  In y st -> b_id y = pid -> In y (prune_store now p st).
Proof.
  intros now p st b pid y ND HB HP HY EY.
  apply prune_store_In in HB; [|exact ND]. destruct HB as [HBI HBD]. apply prune_store_In; [exact ND|]. split; [exact HY|].
  pose proof (keep_set_closed now p (list_backups st)) as HC.
  assert (HR : retained_in now p (keep_set now p (list_backups st)) b = true)
    by (apply negb_false_iff; rewrite <- HBD; apply negb_orb).
  pose proof (HC b pid (proj2 (list_backups_In st b) HBI) HR HP) as HK.
  unfold prune_deletes. rewrite EY. apply memN_In in HK. rewrite HK; reflexivity.
Qed.

Lemma prune_keeps_chain : forall now p st rch,
  NoDup (map b_id st) -> linked rch -> (forall b, In b rch -> find_b st (b_id b) = Some b) ->
  forall tip, hd_error rch = Some tip -> In tip (prune_store now p st) ->
  forall b, In b rch -> find_b (prune_store now p st) (b_id b) = Some b.
Proof.
  intros now p st rch ND HL HF tip HH HT b HI.
  apply in_find_b; [apply NoDup_map_filter, ND|]. revert HF tip HH HT b HI.
  (* every member is retained: the tip by assumption, then each parent by prune_keeps_parents *)
  induction HL as [x HK HP | x bp r HK HP HL IH]; intros HF tip HH HT b HI; cbn in HH; injection HH as <-.
  - destruct HI as [<-|[]]. exact HT.
  - destruct HI as [<-|HI]; [exact HT|].
    apply (IH (fun b0 H0 => HF b0 (or_intror H0)) bp eq_refl); [|exact HI].
    apply (prune_keeps_parents now p st x (b_id bp) bp ND HT HP); [|reflexivity].
    apply (find_b_In st (b_id bp) bp). apply HF; right; left; reflexivity.
Qed.

Definition opts_plain := mkOpts false false false.
Definition default_policy := mkPolicy 24 7 4 12 0.

(* ---- the two defects repaired in /repo (0a20737, b41f57f), kept as witnesses on local copies of the
        OLD functions; the same inputs are then run through the current model. *)
Definition create_incr_files_old (d : sdir) (pts : N) (pmax : option N) : res created :=
  match sget d FManifest with
  | Some (CBlob _, _) => Err EBadManifest
  | ml =>
      let sel := filter (incr_selected pts pmax) (wal_on_disk d) in
      match sel with
      | [] => Err ENoNewWal
      | _ =>
          match ml with
          | Some (CMan m, _) =>
              let segs := merge_segs (m_segs m) (map fst sel) in
              Ok ((FManifest, CMan (set_segs m segs)) :: map (fun e => (FWal (fst e), fst (snd e))) sel,
                  max_list (map fst sel), None)
          | _ => Err ENoManifest
          end
      end
  end.

Definition prune_store_old (now : N) (p : policy) (st : store) : store :=
  let listing := list_backups st in
  let del := map b_id (filter (fun b => negb (kept now p listing b) && negb (young now p b)) listing) in
  filter (fun b => negb (memN (b_id b) del)) st.

(* directory when the full backup is taken: no snapshot yet, one segment *)
Definition w_d0 : sdir :=
  [(FManifest, (CMan (mkMan None None [10] 1), 50)); (FWal 10, (CBlob 100, 50))].
(* later: more appends to the same segment, then a snapshot (manifest now names snapshot 70) *)
Definition w_m1 := mkMan (Some 70) (Some 3) [10] 1.
Definition w_d1 : sdir :=
  [(FManifest, (CMan w_m1, 70)); (FSnap 70, (CBlob 200, 70)); (FWal 10, (CBlob 101, 65))].
Definition w_sc (s : N) : content := CBlob 200.

Definition w_b1 := mkBackup 1 None Full 60 [(FManifest, CMan (mkMan None None [10] 1)); (FWal 10, CBlob 100)] true (Some 10) None 0.
Definition w_b2_old := mkBackup 2 (Some 1) Incremental 80 [(FManifest, CMan w_m1); (FWal 10, CBlob 101)] true (Some 10) None 0.
Definition w_b2 := mkBackup 2 (Some 1) Incremental 80
  [(FSnap 70, CBlob 200); (FManifest, CMan w_m1); (FWal 10, CBlob 101)] true (Some 10) (Some 70) 0.

(* OLD behaviour: the incremental after a snapshot shipped no snapshot; the restore of the verified
   chain succeeded and was not recoverable. *)
Example old_incremental_after_snapshot :
  create_full w_d0 1 60 0 = Ok w_b1 /\
  create_incr_files_old w_d1 60 (Some 10) = Ok (b_files w_b2_old, Some 10, None) /\
  exists t', restore_by_id [w_b1; w_b2_old] [] 2 opts_plain = (None, t') /\
             restorable t' = false /\ recovery_view t' <> recovery_view (strip w_d1).
Proof.
  split; [vm_compute; reflexivity|]. split; [vm_compute; reflexivity|].
  eexists; split; [vm_compute; reflexivity|]. split; [vm_compute; reflexivity|vm_compute; discriminate].
Qed.

Ltac premises :=
  first [ apply wf_sdirb_ok; vm_compute; reflexivity
        | apply snaps_agreeb_ok; vm_compute; reflexivity
        | apply evolvesb_ok; [apply nodup_names_ok; vm_compute; reflexivity|vm_compute; reflexivity]
        | vm_compute; reflexivity ].

Lemma w_chain_ok : chain_ok w_sc [w_b2; w_b1] w_d1 w_m1.
Proof.
  eapply (co_incr w_sc [] w_d0 (mkMan None None [10] 1) w_b1 w_d1 w_m1 w_b2 [w_b1] 2 80 0); try premises.
  - eapply (co_full w_sc w_d0 _ w_b1 1 60 0); premises.
  - intros b [].
Qed.

(* CURRENT behaviour on the same input: the snapshot is shipped and the chain restores exactly. *)
Example incremental_after_snapshot_now_exact :
  create_incremental [w_b1] w_d1 1 2 80 0 = Ok w_b2 /\
  restore_by_id [w_b1; w_b2] [] 2 opts_plain =
    (None, [(FManifest, CMan w_m1); (FWal 10, CBlob 101); (FSnap 70, CBlob 200)]) /\
  recovery_view (snd (restore_by_id [w_b1; w_b2] [] 2 opts_plain)) = recovery_view (strip w_d1) /\
  recovery_view (strip w_d1) = Some (w_m1, Some (CBlob 200), [CBlob 101]).
Proof. repeat split; vm_compute; reflexivity. Qed.

(* OLD prune (default policy): full backup and its incremental in one hourly bucket; the newest was kept
   and its parent deleted, so the kept backup could not be restored.  CURRENT prune keeps both. *)
Example old_prune_deleted_parent :
  prune_store_old 1000 default_policy [w_b2; w_b1] = [w_b2] /\
  restore_by_id (prune_store_old 1000 default_policy [w_b2; w_b1]) [] 2 opts_plain = (Some EParentNotFound, []) /\
  prune_store 1000 default_policy [w_b2; w_b1] = [w_b2; w_b1] /\
  fst (restore_by_id (prune_store 1000 default_policy [w_b2; w_b1]) [] 2 opts_plain) = None.
Proof. repeat split; vm_compute; reflexivity. Qed.

(* the remaining class: an ancestor's metadata removed from the backup directory by hand *)
Example ancestor_removed_by_hand :
  KnownC12 [w_b2] [w_b2; w_b1] /\ restore_by_id [w_b2] [] 2 opts_plain = (Some EParentNotFound, []).
Proof.
  split; [exists w_b1; split; [right; left; reflexivity|vm_compute; reflexivity]|vm_compute; reflexivity].
Qed.

(* prune still deletes what no survivor needs: here the older chain (ids 1,2) goes, the newer full stays *)
Definition p_b3 := mkBackup 3 None Full 100 [(FManifest, CMan w_m1)] true None None 0.
Example prune_still_prunes :
  prune_deleted 1000 default_policy (list_backups [w_b1; w_b2; p_b3]) = [2; 1].
Proof. vm_compute; reflexivity. Qed.

(* Non-vacuity: a four-member chain — full (snapshot 5), incremental after appends, incremental after a
   NEW snapshot 7 and a rotation (ships snapshot 7), incremental after further appends (ships nothing:
   the walk over the ancestors' metadata finds snapshot 7 two levels up) — satisfies every premise of
   C12_chain_restore_exact and restores to the source's view. *)
Definition n_sc (s : N) : content := if s =? 5 then CBlob 300 else CBlob 301.
Definition n_m0 := mkMan (Some 5) (Some 2) [10] 1.
Definition n_d0 : sdir :=
  [(FManifest, (CMan n_m0, 40)); (FSnap 5, (CBlob 300, 30)); (FWal 10, (CBlob 100, 50))].
Definition n_d1 : sdir :=
  [(FManifest, (CMan n_m0, 40)); (FSnap 5, (CBlob 300, 30)); (FWal 10, (CBlob 101, 65))].
Definition n_m2 := mkMan (Some 7) (Some 9) [10; 20] 2.
Definition n_d2 : sdir :=
  [(FManifest, (CMan n_m2, 90)); (FSnap 5, (CBlob 300, 30)); (FSnap 7, (CBlob 301, 88));
   (FWal 10, (CBlob 102, 85)); (FWal 20, (CBlob 400, 95))].
Definition n_d3 : sdir :=
  [(FManifest, (CMan n_m2, 90)); (FSnap 7, (CBlob 301, 88)); (FWal 10, (CBlob 102, 85)); (FWal 20, (CBlob 401, 115))].
Definition n_b1 := mkBackup 1 None Full 60
  [(FSnap 5, CBlob 300); (FManifest, CMan n_m0); (FWal 10, CBlob 100)] true (Some 10) (Some 5) 0.
Definition n_b2 := mkBackup 2 (Some 1) Incremental 80 [(FManifest, CMan n_m0); (FWal 10, CBlob 101)] true (Some 10) None 0.
Definition n_b3 := mkBackup 3 (Some 2) Incremental 100
  [(FSnap 7, CBlob 301); (FManifest, CMan n_m2); (FWal 10, CBlob 102); (FWal 20, CBlob 400)] true (Some 20) (Some 7) 0.
Definition n_b4 := mkBackup 4 (Some 3) Incremental 120 [(FManifest, CMan n_m2); (FWal 20, CBlob 401)] true (Some 20) None 0.

Lemma n_chain_ok : chain_ok n_sc [n_b4; n_b3; n_b2; n_b1] n_d3 n_m2.
Proof.
  eapply (co_incr n_sc [n_b2; n_b1] n_d2 n_m2 n_b3 n_d3 n_m2 n_b4 [n_b1; n_b2; n_b3] 4 120 0); try premises.
  - eapply (co_incr n_sc [n_b1] n_d1 n_m0 n_b2 n_d2 n_m2 n_b3 [n_b1; n_b2] 3 100 0); try premises.
    + eapply (co_incr n_sc [] n_d0 n_m0 n_b1 n_d1 n_m0 n_b2 [n_b1] 2 80 0); try premises.
      * eapply (co_full n_sc n_d0 _ n_b1 1 60 0); premises.
      * intros b [].
    + intros b [E|[]]; subst; left; vm_compute; reflexivity.
  - intros b [E|[E|[]]]; subst; left; vm_compute; reflexivity.
Qed.
