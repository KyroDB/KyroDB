(* Proofs about Model/Conc05.v (C05).  The theorems are stated in Properties/C05.v. *)
From Coq Require Import List NArith ZArith Bool Arith Lia Sorted.
From Kyro Require Import Model.TMap Model.Tiered Model.Conc05 Proofs.ListFacts Proofs.TMapFacts.
Import ListNotations.

Section MapFacts.
  Context {A : Type}.
  Implicit Types l : list (N * A).

  Lemma mem_true : forall k l, mem k l = true <-> lookup k l <> None.
  Proof. intros. apply mem_lookup. Qed.
End MapFacts.

Lemma in_map_snd : forall {A B} (o : B) (F : list (A * B)), In o (map snd F) -> exists k, In (k, o) F.
Proof. intros A B o F H. apply in_map_iff in H as ([k o'] & <- & H). eauto. Qed.

Lemma SS_rev : forall {A} (R : A -> A -> Prop) l,
  StronglySorted R l -> StronglySorted (fun a b => R b a) (rev l).
Proof.
  intros A R l HS. induction HS as [|x l HS IH HF]; cbn [rev]; [constructor|].
  apply StronglySorted_app_iff. split; [exact IH|]. split; [repeat constructor|].
  intros y z Hy [<-|[]]. rewrite Forall_forall in HF. apply HF. apply in_rev. exact Hy.
Qed.

Lemma in_stamp : forall now ops e, In e (stamp now ops) <-> fst e = now /\ In (snd e) ops.
Proof.
  intros now ops [k o]. unfold stamp. rewrite in_map_iff. cbn [fst snd]. split.
  - intros (x & E & Hin). inversion E; subst. auto.
  - intros [-> Hin]. exists o. auto.
Qed.
Lemma snd_stamp : forall now ops, map snd (stamp now ops) = ops.
Proof. intros. unfold stamp. rewrite map_map. cbn. apply map_id. Qed.

Lemma meta_eqb_refl : forall m : meta, meta_eqb m m = true.
Proof.
  unfold meta_eqb. induction m as [|[a b] r IH]; [reflexivity|].
  cbn [list_eqb]. unfold pairN_eqb at 1. cbn [fst snd]. rewrite !N.eqb_refl, IH. reflexivity.
Qed.

(* a check, decided by evaluation, that no canonical version of id (the initial one or one written in
   the log L) carries vector v together with metadata m *)
Definition no_pair (v : vec) (m : meta) (rcs : list crec) : bool :=
  forallb (fun rc => negb (vec_eqb (c_vec rc) v && meta_eqb (c_meta rc) m)) rcs.
Definition written (id : N) (L : list lentry) : list crec :=
  flat_map (fun e => match snd e with LW i (Some rc) => if N.eqb i id then [rc] else [] | _ => [] end) L.

Lemma no_pair_check : forall (L : list lentry) cold0 id v m,
  no_pair v m (match lookup id cold0 with Some rc => [rc] | None => [] end ++ written id L) = true ->
  (forall rc, lookup id cold0 = Some rc -> ~ (c_vec rc = v /\ c_meta rc = m)) /\
  (forall k rc, In (k, LW id (Some rc)) L -> ~ (c_vec rc = v /\ c_meta rc = m)).
Proof.
  intros L cold0 id v m H.
  assert (Hrc : forall rc, In rc (match lookup id cold0 with Some rc => [rc] | None => [] end ++ written id L) ->
                ~ (c_vec rc = v /\ c_meta rc = m)).
  { intros rc Hin [<- <-]. unfold no_pair in H. rewrite forallb_forall in H. specialize (H rc Hin).
    rewrite (proj2 (vec_eqb_eq _ _) eq_refl), meta_eqb_refl in H. discriminate. }
  split.
  - intros rc E. apply Hrc. rewrite E. left. reflexivity.
  - intros k rc Hin. apply Hrc. apply in_or_app. right.
    apply in_flat_map. exists (k, LW id (Some rc)). split; [exact Hin|]. cbn. rewrite N.eqb_refl. left. reflexivity.
Qed.

Definition vec_just (F : list lop) (id : N) (val : option vec) : Prop :=
  exists x, In (LObs id x) F /\ option_map c_vec x = val.
Definition meta_just (F : list lop) (id : N) (m : meta) : Prop :=
  exists x, In (LObs id x) F /\ option_map c_meta x = Some m.
(* a write entry fits the call that issued it *)
Definition write_matches (cl : call) (id : N) (x : option crec) : Prop :=
  match cl with
  | CInsert id' v m => id = id' /\ exists r, x = Some r /\ c_vec r = v /\ c_meta r = meta_canon m
  | CDelete id' => id = id' /\ x = None
  | _ => False
  end.
(* a write issued by the emergency drain inside an insert: the cold tier is "repaired" from a drained
   mirror entry of SOME id (not the insert's own argument) *)
Definition drain_repair (cl : call) (id : N) (x : option crec) : Prop :=
  (exists i v m, cl = CInsert i v m) /\ exists rc, x = Some rc.
Definition write_just (F : list lop) (cl : call) (r : result) : Prop :=
  match cl with
  | CInsert id v m => exists rc, In (LW id (Some rc)) F /\ c_vec rc = v /\ c_meta rc = meta_canon m
  | CDelete id => In (LW id None) F
  | _ => True
  end.
Definition justified (F : list lop) (cl : call) (r : result) : Prop :=
  (forall id val, In (id, val) (vec_components r) -> vec_just F id val) /\
  (forall id m, In (id, m) (meta_components r) -> meta_just F id m) /\
  write_just F cl r.
Definition writes_ok (cl : call) (F : list lop) : Prop :=
  forall id x, In (LW id x) F -> write_matches cl id x.

Lemma vec_just_mono : forall F F' id v, incl F F' -> vec_just F id v -> vec_just F' id v.
Proof. intros F F' id v HI (x & Hin & E). exists x. auto. Qed.
Lemma meta_just_mono : forall F F' id m, incl F F' -> meta_just F id m -> meta_just F' id m.
Proof. intros F F' id m HI (x & Hin & E). exists x. auto. Qed.
Lemma write_just_mono : forall F F' cl r, incl F F' -> write_just F cl r -> write_just F' cl r.
Proof.
  intros F F' cl r HI. destruct cl; cbn; auto.
  intros (rc & Hin & E). exists rc. auto.
Qed.
Lemma justified_mono : forall F F' cl r, incl F F' -> justified F cl r -> justified F' cl r.
Proof.
  intros F F' cl r HI (H1 & H2 & H3). repeat split.
  - intros. eapply vec_just_mono; eauto.
  - intros. eapply meta_just_mono; eauto.
  - eapply write_just_mono; eauto.
Qed.

Section Proofs.
  Variable digest : vec -> dgst.
  Variable hard : nat.
  Hypothesis digest_inj : forall a b : vec, digest a = digest b -> a = b.

  Notation rec_tok := (rec_tok digest).
  Notation cvs_of := (cvs_of digest).
  Notation step_prog := (step_prog digest).

  (* "the rest of the call, whatever the caches answer and whatever the cold tier holds when it is
     asked, returns only values backed by its own cold-tier observations; and issues only its own
     write" — F is the list of register accesses the call has made so far *)
  Fixpoint sound (cl : call) (F : list lop) (p : prog) : Prop :=
    match p with
    | Ret r => justified F cl r
    | L1Get _ k | L1Peek _ k | HotGet _ k => forall o, sound cl F (k o)
    | HotBulk _ k => forall o, sound cl F (k o)
    | HotDel _ k | HotExists _ k => forall b, sound cl F (k b)
    | HotLen k => forall n, sound cl F (k n)
    | L1Inv _ k | L1Ins _ _ k | HotIns _ _ k | Silent _ k => sound cl F k
    | ColdTok id k => forall x, sound cl (LObs id x :: F) (k (option_map rec_tok x))
    | ColdFetch _ id k =>
        forall x, sound cl (LObs id x :: F) (k (option_map (fun r => (c_vec r, rec_tok r)) x))
    | ColdMeta id k => forall x, sound cl (LObs id x :: F) (k (option_map c_meta x))
    | ColdBulk ids k =>
        forall f : N -> option crec,
          sound cl (map (fun id => LObs id (f id)) ids ++ F)
                (k (map (fun id => option_map (fun r => (c_vec r, c_meta r)) (f id)) ids))
    | ColdIns id v m k =>
        cl = CInsert id v m /\
        forall rc, c_vec rc = v -> c_meta rc = meta_canon m -> sound cl (LW id (Some rc) :: F) k
    | ColdDel id k => cl = CDelete id /\ forall b, sound cl (LW id None :: F) (k b)
    | HotDrain k => forall o, sound cl F (k o)
    | ColdRepair id _ _ k =>
        (exists i v m, cl = CInsert i v m) /\ forall rc, sound cl (LW id (Some rc) :: F) k
    end.

  Lemma sound_mono : forall cl p F F', incl F F' -> sound cl F p -> sound cl F' p.
  Proof using digest.
    intros cl p. induction p; cbn [sound]; intros F F' HI HS; eauto using justified_mono.
    (* the remaining actions put their own accesses in front of the fact list *)
    all: assert (HI' : forall G, incl (G ++ F) (G ++ F')) by (intros G; apply incl_app_app; [apply incl_refl|exact HI]).
    - intros x. exact (H _ _ _ (HI' [_]) (HS x)).
    - intros x. exact (H _ _ _ (HI' [_]) (HS x)).
    - intros x. exact (H _ _ _ (HI' [_]) (HS x)).
    - intros f. exact (H _ _ _ (HI' _) (HS f)).
    - destruct HS as [E HS]. split; [exact E|]. intros rc E1 E2. exact (IHp _ _ (HI' [_]) (HS rc E1 E2)).
    - destruct HS as [E HS]. split; [exact E|]. intros b. exact (H _ _ _ (HI' [_]) (HS b)).
    - destruct HS as [E HS]. split; [exact E|]. intros rc. exact (IHp _ _ (HI' [_]) (HS rc)).
  Qed.

  (* the token check: Match forces equality with the canonical vector seen by that very read *)
  Lemma cvs_match : forall x v t,
    cvs_of (option_map rec_tok x) v t = CMatch -> exists r, x = Some r /\ c_vec r = v.
  Proof.
    intros x v t. unfold Conc05.cvs_of. destruct x as [r|]; cbn [option_map]; [|discriminate].
    destruct (tok_eqb (rec_tok r) t) eqn:E1; cbn [negb]; [|discriminate].
    destruct (vec_eqb (digest v) (snd t)) eqn:E2; cbn [negb]; [|discriminate].
    intros _. exists r. split; [reflexivity|].
    apply tok_eqb_eq in E1. apply vec_eqb_eq in E2. subst t. unfold Conc05.rec_tok in E2. cbn [snd] in E2.
    symmetry. apply digest_inj. exact E2.
  Qed.

  (* one action of a sound rest: what is left is sound over the enlarged fact list, and a write among
     the accesses it logged is the call's own or a drain repair.  (The step's result stays a variable,
     here and in step_prog_cold: an equation between quadruples, opened in each of the twenty cases, is
     slow.) *)
  Lemma sound_step : forall cl F s p st,
    sound cl F p -> step_prog s p = Some st ->
    let '(_, p1, ops, _) := st in
    sound cl (ops ++ F) p1 /\
    forall id x, In (LW id x) ops -> write_matches cl id x \/ drain_repair cl id x.
  Proof.
    intros cl F s p st HS HSt.
    destruct p; cbn [Conc05.step_prog] in HSt; try discriminate; injection HSt as <-;
      cbn [sound app] in *; (split; [try solve [apply HS]|intros i x Hin]);
      try solve [destruct Hin as [Hin|[]]; discriminate | destruct Hin].
    (* left: ColdBulk logs observations only; ColdIns, ColdDel and ColdRepair log one write *)
    - apply in_map_iff in Hin as (y & E & _). discriminate.
    - destruct HS as [_ HS]. apply HS; reflexivity.
    - destruct HS as [-> _], Hin as [Hin|[]]. injection Hin as <- <-. left. cbn. eauto 6.
    - destruct HS as [-> _], Hin as [Hin|[]]. injection Hin as <- <-. left. cbn. auto.
    - destruct HS as [E _], Hin as [Hin|[]]. injection Hin as <- <-. right. split; eauto.
  Qed.

  Definition is_read (cl : call) : Prop :=
    match cl with CInsert _ _ _ | CDelete _ => False | _ => True end.

  Lemma just_vec_head : forall cl F id x v,
    is_read cl -> option_map c_vec x = v -> justified (LObs id x :: F) cl (RVec id v).
  Proof.
    intros cl F id x v Hcl E. repeat split.
    - intros id' val [H|[]]. inversion H; subst. exists x. split; [left; reflexivity|reflexivity].
    - intros id' m [].
    - destruct cl; cbn; auto; contradiction.
  Qed.

  Lemma sound_discard : forall cl F id k, sound cl F k -> sound cl F (discard_then id k).
  Proof. intros. unfold discard_then. cbn [sound]. intros _. exact H. Qed.

  Lemma sound_hot_probe : forall cl F id kmatch kmiss,
    (forall h x, option_map c_vec x = Some (h_vec h) -> sound cl (LObs id x :: F) (kmatch h)) ->
    (forall F', incl F F' -> sound cl F' kmiss) ->
    sound cl F (hot_probe digest id kmatch kmiss).
  Proof.
    intros cl F id kmatch kmiss HM HK. unfold hot_probe. cbn [sound]. intros [h|].
    - cbn [sound]. intros x. destruct (cvs_of (option_map rec_tok x) (h_vec h) (h_tok h)) eqn:E.
      2-3: apply sound_discard.
      2-4: (apply HK; apply incl_tl, incl_refl).
      apply cvs_match in E as (r & -> & E). apply HM. cbn. congruence.
    - apply HK. apply incl_refl.
  Qed.

  (* the L1a hit of the two vector reads: the token check against the canonical record; on a match the
     cached vector is the canonical one seen by that very read, otherwise invalidate and go on *)
  Lemma sound_l1_check : forall cl F id e rest, is_read cl -> (forall F', sound cl F' rest) ->
    sound cl F (ColdTok id (fun ot => match cvs_of ot (l_vec e) (l_tok e) with
                                      | CMatch => Ret (RVec id (Some (l_vec e)))
                                      | _ => L1Inv id rest
                                      end)).
  Proof.
    intros cl F id e rest Hcl Hrest. cbn [sound]. intros x.
    destruct (cvs_of (option_map rec_tok x) (l_vec e) (l_tok e)) eqn:E; cbn [sound]; try apply Hrest.
    apply cvs_match in E as (r & -> & E). apply just_vec_head; [exact Hcl|cbn; congruence].
  Qed.

  Lemma sound_query : forall adm id, sound (CQuery adm id) [] (p_query digest adm id).
  Proof.
    intros adm id. unfold p_query. cbv beta zeta. set (rest := hot_probe _ _ _ _).
    assert (Hrest : forall F, sound (CQuery adm id) F rest).
    { intros F. apply sound_hot_probe.
      - intros h x E. destruct adm; cbn [sound]; apply just_vec_head; auto; exact I.
      - intros F' _. cbn [sound]. intros [r|]; cbn [option_map]; [destruct adm|]; cbn [sound];
          apply just_vec_head; auto; exact I. }
    cbn [sound]. intros [e|]; [apply sound_l1_check; [exact I|exact Hrest]|apply Hrest].
  Qed.

  Lemma sound_getemb : forall id, sound (CGetEmb id) [] (p_getemb digest id).
  Proof.
    intros id. unfold p_getemb. cbv beta zeta. set (rest := hot_probe _ _ _ _).
    assert (Hrest : forall F, sound (CGetEmb id) F rest).
    { intros F. apply sound_hot_probe.
      - intros h x E. cbn [sound]. apply just_vec_head; auto; exact I.
      - intros F' _. cbn [sound]. intros x. apply just_vec_head; [exact I|]. destruct x; reflexivity. }
    cbn [sound]. intros [e|]; [apply sound_l1_check; [exact I|exact Hrest]|apply Hrest].
  Qed.

  Lemma just_doc_none : forall F id, In (LObs id None) F -> justified F (CGetDoc id) (RDoc id None).
  Proof.
    intros F id Hin. repeat split; cbn.
    - intros id' val [H|[]]. inversion H; subst. exists None. auto.
    - intros id' m [].
  Qed.
  Lemma just_doc_some : forall F id xv xm v m,
    In (LObs id xv) F -> In (LObs id xm) F -> option_map c_vec xv = Some v -> option_map c_meta xm = Some m ->
    justified F (CGetDoc id) (RDoc id (Some (v, m))).
  Proof.
    intros F id xv xm v m H1 H2 E1 E2. repeat split; cbn.
    - intros id' val [H|[]]. inversion H; subst. exists xv. auto.
    - intros id' m' [H|[]]. inversion H; subst. exists xm. auto.
  Qed.

  Lemma sound_getdoc : forall id, sound (CGetDoc id) [] (p_getdoc digest id).
  Proof.
    intros id. unfold p_getdoc. cbn [sound]. intros [rm|]; cbn [option_map].
    - apply sound_hot_probe.
      + intros h x E. cbn [sound]. eapply just_doc_some; [left; reflexivity | right; left; reflexivity | exact E | reflexivity].
      + intros F' HI. cbn [sound]. intros [r|]; cbn [option_map sound].
        * eapply just_doc_some; [left; reflexivity | right; apply HI; left; reflexivity | reflexivity | reflexivity].
        * intros _. apply just_doc_none. left. reflexivity.
    - cbn [sound]. intros _. apply just_doc_none. left. reflexivity.
  Qed.

  (* bulk, entry by entry: an answer is backed by the facts; a hole of the hot-tier pass waits for the
     final cold_tier.bulk_fetch *)
  Definition ent_just (F : list lop) (p : N * option (vec * meta)) : Prop :=
    vec_just F (fst p) (option_map fst (snd p)) /\
    match snd p with Some (_, m) => meta_just F (fst p) m | None => True end.
  Definition acc_ok (F : list lop) : list (N * option (vec * meta)) -> Prop :=
    Forall (fun p => snd p = None \/ ent_just F p).

  Lemma ent_just_mono : forall F F' p, incl F F' -> ent_just F p -> ent_just F' p.
  Proof.
    intros F F' p HI [A B]. split; [eapply vec_just_mono; eauto|].
    destruct (snd p) as [[v m]|]; [eapply meta_just_mono; eauto|exact I].
  Qed.
  Lemma acc_ok_mono : forall F F' acc, incl F F' -> acc_ok F acc -> acc_ok F' acc.
  Proof. intros F F' acc HI. apply Forall_impl. intros p [E|J]; eauto using ent_just_mono. Qed.

  Lemma sound_bulk_loop : forall cl k snap F acc,
    acc_ok F acc -> (forall F' part, acc_ok F' part -> sound cl F' (k part)) ->
    sound cl F (bulk_loop digest snap acc k).
  Proof.
    intros cl k. induction snap as [|[id [h|]] r IH]; intros F acc HA HK; cbn [bulk_loop].
    - apply HK. apply Forall_rev. exact HA.
    - cbn [sound]. intros x.
      assert (HA1 : acc_ok (LObs id x :: F) acc) by (eapply acc_ok_mono; [apply incl_tl, incl_refl|exact HA]).
      assert (Hnone : sound cl (LObs id x :: F) (bulk_loop digest r ((id, None) :: acc) k))
        by (apply IH; [constructor; [left; reflexivity|exact HA1]|exact HK]).
      destruct (cvs_of (option_map rec_tok x) (h_vec h) (h_tok h)) eqn:E.
      2-3: apply sound_discard.
      2-4: exact Hnone.
      apply cvs_match in E as (rc & -> & E). cbn [sound]. intros xm.
      assert (HA2 : acc_ok (LObs id xm :: LObs id (Some rc) :: F) acc)
        by (eapply acc_ok_mono; [apply incl_tl, incl_refl|exact HA1]).
      destruct xm as [rm|]; cbn [option_map]; (apply IH; [constructor; [|exact HA2]|exact HK]); [right|left; reflexivity].
      split; [exists (Some rc)|exists (Some rm)]; (split; [cbn; auto|cbn; congruence]).
    - apply IH; [constructor; [left; reflexivity|exact HA] | exact HK].
  Qed.

  Definition missing_of (part : list (N * option (vec * meta))) : list N :=
    map fst (filter (fun p => is_none (snd p)) part).

  Lemma fill_spec : forall (g : N -> option (vec * meta)) part,
    fill part (map g (missing_of part)) =
    map (fun p => match snd p with Some x => (fst p, Some x) | None => (fst p, g (fst p)) end) part.
  Proof.
    intros g. induction part as [|[id [x|]] r IH]; unfold missing_of in *; cbn [filter snd fst is_none map fill].
    - reflexivity.
    - rewrite IH. reflexivity.
    - rewrite IH. reflexivity.
  Qed.

  Lemma in_missing : forall part id, In (id, None) part -> In id (missing_of part).
  Proof.
    intros part id Hin. unfold missing_of. apply in_map_iff. exists (id, None). split; [reflexivity|].
    apply filter_In. split; [exact Hin | reflexivity].
  Qed.

  Lemma just_bulk : forall F ids rs, Forall (ent_just F) rs -> justified F (CBulk ids) (RBulk rs).
  Proof.
    intros F ids rs H. rewrite Forall_forall in H. repeat split; cbn.
    - intros id val Hin. apply in_map_iff in Hin as (p & E & Hin). injection E as <- <-. apply (H p Hin).
    - intros id m Hin. apply in_flat_map in Hin as (p & Hin & E). destruct (H p Hin) as [_ B].
      destruct (snd p) as [[v m']|]; [|destruct E]. destruct E as [E|[]]. injection E as <- <-. exact B.
  Qed.

  Lemma sound_bulk : forall ids, sound (CBulk ids) [] (p_bulk digest ids).
  Proof.
    intros ids. unfold p_bulk. cbn [sound]. intros hs. apply sound_bulk_loop; [constructor|].
    intros F part HA. fold (missing_of part). unfold acc_ok in HA. rewrite Forall_forall in HA.
    destruct (missing_of part) as [|i0 rest] eqn:EM.
    - (* no hole *)
      cbn [sound]. apply just_bulk, Forall_forall. intros [id o] Hin. destruct (HA _ Hin) as [E|J]; [|exact J].
      cbn in E. subst o. apply in_missing in Hin. rewrite EM in Hin. destruct Hin.
    - rewrite <- EM. cbn [sound]. intros f.
      set (g := fun id => option_map (fun r => (c_vec r, c_meta r)) (f id)).
      change (map (fun id => option_map (fun r => (c_vec r, c_meta r)) (f id)) (missing_of part))
        with (map g (missing_of part)).
      rewrite fill_spec. cbn [sound].
      set (F' := map (fun id => LObs id (f id)) (missing_of part) ++ F).
      apply just_bulk, Forall_map, Forall_forall. intros [id [x|]] Hin; cbn [fst snd].
      + destruct (HA _ Hin) as [E|J]; [discriminate|].
        exact (ent_just_mono _ F' _ (incl_appr _ (incl_refl F)) J).
      + (* a hole is filled from the observation the bulk fetch made of that id *)
        assert (Hobs : In (LObs id (f id)) F').
        { apply in_or_app. left. apply in_map_iff. exists id. split; [reflexivity|]. apply in_missing. exact Hin. }
        unfold ent_just, g. cbn [fst snd]. destruct (f id) as [rc|]; cbn [option_map].
        * split; exists (Some rc); auto.
        * split; [exists None; auto|exact I].
  Qed.

  Lemma sound_drain_loop : forall cl k docs F clear,
    (exists i v m, cl = CInsert i v m) -> (forall F' b, sound cl F' (k b)) ->
    sound cl F (drain_loop docs clear k).
  Proof.
    intros cl k. induction docs as [|[id h] r IH]; intros F clear Hcl HK; cbn [drain_loop]; [apply HK|].
    cbn [sound]. intros xe xm. destruct xe as [re|], xm as [rm|]; cbn [option_map].
    1: (destruct (negb (vec_feqb (c_vec re) (h_vec h))); cbn [sound]; apply IH; auto).
    all: cbn [sound]; split; [exact Hcl|]; intros rc; apply IH; auto.
  Qed.

  Lemma sound_insert : forall id v m, sound (CInsert id v m) [] (p_insert hard id v m).
  Proof.
    intros id v m. unfold p_insert. cbv beta zeta. set (body := L1Inv id _).
    assert (Hbody : forall F, sound (CInsert id v m) F body).
    { intros F. unfold body. cbn [sound]. split; [reflexivity|]. intros rc E1 E2 x.
      assert (J : forall b, justified (LObs id x :: LW id (Some rc) :: F) (CInsert id v m) (RIns b)).
      { intros b. repeat split; cbn; try (intros ? ? []). exists rc. split; [right; left; reflexivity|]. auto. }
      destruct x as [r|]; cbn [option_map sound]; apply J. }
    cbn [sound]. intros n. destruct (hard <=? n); [|apply Hbody].
    cbn [sound]. intros docs. destruct docs as [|d r]; [apply Hbody|].
    apply sound_drain_loop; [eauto|]. intros F' b. destruct b; cbn [sound]; apply Hbody.
  Qed.

  Lemma sound_delete : forall id, sound (CDelete id) [] (p_delete id).
  Proof.
    intros id. unfold p_delete. cbn [sound]. split; [reflexivity|]. intros b1 b2.
    assert (J : forall b, justified [LW id None] (CDelete id) (RDel b)).
    { intros b. repeat split; cbn; try (intros ? ? []). left. reflexivity. }
    destruct (b1 || b2); cbn [sound]; apply J.
  Qed.

  Lemma sound_prog_of : forall cl, sound cl [] (prog_of digest hard cl).
  Proof.
    destruct cl; cbn [prog_of].
    - apply sound_query. - apply sound_getemb. - apply sound_getdoc.
    - apply sound_bulk. - apply sound_insert. - apply sound_delete.
  Qed.
End Proofs.

Lemma reg_after_app : forall a b r, reg_after r (a ++ b) = reg_after (reg_after r a) b.
Proof. induction a as [|[id x|id x] a IH]; intros; cbn; auto. Qed.

Lemma reg_accepts_app : forall a b r,
  reg_accepts r (a ++ b) <-> reg_accepts r a /\ reg_accepts (reg_after r a) b.
Proof.
  induction a as [|[id x|id x] a IH]; intros b r; cbn [app reg_accepts reg_after].
  - tauto.
  - apply IH.
  - rewrite IH. tauto.
Qed.

Lemma reg_upd_ext : forall r r' id x, (forall j, r j = r' j) -> forall j, reg_upd r id x j = reg_upd r' id x j.
Proof. intros. unfold reg_upd. destruct (N.eqb j id); auto. Qed.

Lemma reg_after_ext : forall ops r r', (forall j, r j = r' j) -> forall j, reg_after r ops j = reg_after r' ops j.
Proof.
  induction ops as [|[id x|id x] q IH]; intros r r' H j; cbn [reg_after]; auto.
  apply IH. apply reg_upd_ext. exact H.
Qed.

Lemma reg_accepts_ext : forall ops r r', (forall j, r j = r' j) -> reg_accepts r ops -> reg_accepts r' ops.
Proof.
  induction ops as [|[id x|id x] q IH]; intros r r' H HA; cbn [reg_accepts] in *; auto.
  - eapply IH; [|exact HA]. apply reg_upd_ext. exact H.
  - destruct HA as [E HA]. split; [rewrite <- H; exact E | eapply IH; eauto].
Qed.

Lemma reg_obs_list : forall (f : N -> option crec) ids r,
  (forall id, In id ids -> f id = r id) ->
  reg_accepts r (map (fun id => LObs id (f id)) ids) /\
  reg_after r (map (fun id => LObs id (f id)) ids) = r.
Proof.
  induction ids as [|i q IH]; intros r H; cbn [map reg_accepts reg_after]; [auto|].
  destruct (IH r) as [H1 H2]; [intros; apply H; right; assumption|].
  split; [split; [symmetry; apply H; left; reflexivity | exact H1] | exact H2].
Qed.

Definition is_write (o : lop) : bool := match o with LW _ _ => true | LObs _ _ => false end.

Lemma reg_after_src : forall id ops r,
  reg_after r ops id = r id \/ In (LW id (reg_after r ops id)) ops.
Proof.
  intros id. induction ops as [|[i x|i x] q IH]; intros r; cbn [reg_after In].
  - left. reflexivity.
  - destruct (IH (reg_upd r i x)) as [E|Hin]; [|right; right; exact Hin].
    rewrite E. unfold reg_upd. destruct (N.eqb id i) eqn:Ei.
    + apply N.eqb_eq in Ei. subst i. right. left. reflexivity.
    + left. reflexivity.
  - destruct (IH r) as [E|Hin]; [left; exact E | right; right; exact Hin].
Qed.

Lemma reg_accepts_obs_src : forall id x ops r,
  reg_accepts r ops -> In (LObs id x) ops -> x = r id \/ In (LW id x) ops.
Proof.
  intros id x ops r HA Hin. apply in_split in Hin as (a & b & ->).
  apply reg_accepts_app in HA as [_ [<- _]].
  destruct (reg_after_src id a r) as [E|H]; [left; exact E | right; apply in_or_app; left; exact H].
Qed.

Lemma SS_prepend : forall (now : nat) (new l : list lentry),
  StronglySorted (fun a b => fst b <= fst a) l ->
  (forall e, In e new -> fst e = now) -> (forall e, In e l -> fst e <= now) ->
  StronglySorted (fun a b => fst b <= fst a) (new ++ l).
Proof.
  induction new as [|e q IH]; intros l HS H1 H2; cbn [app]; [exact HS|].
  constructor.
  - apply IH; auto. intros; apply H1; right; assumption.
  - apply Forall_forall. intros y Hy. rewrite (H1 e) by (left; reflexivity).
    apply in_app_or in Hy as [Hy|Hy]; [rewrite (H1 y) by (right; assumption); lia | apply H2; assumption].
Qed.

Lemma sorted_before : forall (L : list lentry) e1 e2,
  StronglySorted (fun a b => fst a <= fst b) L -> In e1 L -> In e2 L -> fst e1 < fst e2 ->
  exists l1 l2 l3, L = l1 ++ e1 :: l2 ++ e2 :: l3.
Proof.
  intros L e1 e2 HS. induction HS as [|x l HS IH HF]; intros H1 H2 Hlt; [destruct H1|].
  rewrite Forall_forall in HF.
  destruct H1 as [->|H1].
  - destruct H2 as [->|H2]; [lia|].
    apply in_split in H2 as (l2 & l3 & ->). exists [], l2, l3. reflexivity.
  - destruct H2 as [->|H2].
    + specialize (HF _ H1). lia.
    + destruct (IH H1 H2 Hlt) as (l1 & l2 & l3 & ->). exists (x :: l1), l2, l3. reflexivity.
Qed.

(* what an observation placed after the entry e1 sees: the register as e1 left it, or the value of a
   write of the same id placed between the two *)
Lemma obs_after : forall (L : list lentry) r id x k e1,
  StronglySorted (fun a b => fst a <= fst b) L -> reg_accepts r (map snd L) ->
  In e1 L -> In (k, LObs id x) L -> fst e1 < k ->
  exists l1, (exists l2 l3, L = l1 ++ e1 :: l2 ++ (k, LObs id x) :: l3) /\
    (x = reg_after (reg_after r (map snd l1)) [snd e1] id \/
     exists kw, In (kw, LW id x) L /\ fst e1 <= kw <= k).
Proof.
  intros L r id x k e1 HS HA H1 H2 Hlt.
  destruct (sorted_before L e1 (k, LObs id x) HS H1 H2 Hlt) as (l1 & l2 & l3 & ->).
  exists l1. split; [eauto|]. unfold lentry in *.
  rewrite map_app in HA. apply reg_accepts_app in HA as [_ HA].
  change (map snd (e1 :: l2 ++ (k, LObs id x) :: l3)) with ([snd e1] ++ map snd (l2 ++ (k, LObs id x) :: l3)) in HA.
  apply reg_accepts_app in HA as [_ HA]. rewrite map_app in HA. apply reg_accepts_app in HA as [_ HA].
  cbn [map snd reg_accepts] in HA. destruct HA as [Ex _].
  destruct (reg_after_src id (map snd l2) (reg_after (reg_after r (map snd l1)) [snd e1])) as [E|Hin]; rewrite Ex in *.
  - left. exact E.
  - right. clear Ex. apply in_map_snd in Hin as [kw Hin]. exists kw. split.
    + apply in_or_app. right. right. apply in_or_app. left. exact Hin.
    + apply StronglySorted_app_iff in HS as (_ & HS & _). apply StronglySorted_inv in HS as [HS2 HF].
      rewrite Forall_forall in HF. split.
      * apply (HF (kw, LW id x)). apply in_or_app. left. exact Hin.
      * apply StronglySorted_app_iff in HS2 as (_ & _ & H). apply (H (kw, LW id x) (k, LObs id x) Hin). left. reflexivity.
Qed.

Lemma last_write_before : forall (L : list lentry) r id x xW k kW,
  StronglySorted (fun a b => fst a <= fst b) L -> reg_accepts r (map snd L) ->
  In (k, LObs id x) L -> In (kW, LW id xW) L -> kW < k ->
  exists kw, In (kw, LW id x) L /\ kW <= kw <= k.
Proof.
  intros L r id x xW k kW HS HA Ho Hw Hlt.
  destruct (obs_after L r id x k (kW, LW id xW) HS HA Hw Ho Hlt) as (l1 & _ & [E|H]); [|exact H].
  cbn in E. unfold reg_upd in E. rewrite N.eqb_refl in E. subst x. exists kW. split; [exact Hw|cbn in Hlt; lia].
Qed.

Lemma obs_same_without_write : forall (L : list lentry) r id x1 x2 k1 k2,
  StronglySorted (fun a b => fst a <= fst b) L -> reg_accepts r (map snd L) ->
  In (k1, LObs id x1) L -> In (k2, LObs id x2) L -> k1 < k2 ->
  (forall kw xw, In (kw, LW id xw) L -> ~ (k1 <= kw <= k2)) -> x1 = x2.
Proof.
  intros L r id x1 x2 k1 k2 HS HA H1 H2 Hlt Hno.
  destruct (obs_after L r id x2 k2 (k1, LObs id x1) HS HA H1 H2 Hlt) as (l1 & (l2 & l3 & ->) & [E|(kw & Hw & Hk)]).
  - cbn in E. unfold lentry in *. rewrite map_app in HA. apply reg_accepts_app in HA as [_ HA].
    cbn in HA. destruct HA as [E1 _]. congruence.
  - exfalso. exact (Hno kw x2 Hw Hk).
Qed.

Lemma write_matches_some : forall cl id rc,
  write_matches cl id (Some rc) -> exists m, cl = CInsert id (c_vec rc) m.
Proof.
  intros cl id rc Hm. destruct cl; cbn in Hm; try contradiction.
  - destruct Hm as (-> & r0 & E0 & <- & _). inversion E0; subst r0. eauto.
  - destruct Hm as [_ Hm]. discriminate.
Qed.

Lemma pair_split : forall r id v m, In (id, (v, m)) (pair_components r) ->
  In (id, Some v) (vec_components r) /\ In (id, m) (meta_components r).
Proof.
  intros r id v m H. destruct r as [i o|i [[v0 m0]|]|rs|b|b]; cbn in *; try contradiction.
  - destruct H as [H|[]]. inversion H; subst. split; left; reflexivity.
  - apply in_flat_map in H as ([i [[v0 m0]|]] & Hin & H); cbn in H; [|contradiction].
    destruct H as [H|[]]. inversion H; subst. split.
    + apply in_map_iff. exists (id, Some (v, m)). split; [reflexivity | exact Hin].
    + apply in_flat_map. exists (id, Some (v, m)). split; [exact Hin | left; reflexivity].
Qed.

Lemma nth_upd_same : forall {A} (l : list A) n x y, nth_error l n = Some y -> nth_error (upd_nth l n x) n = Some x.
Proof. induction l as [|a r IH]; intros [|n] x y H; cbn in *; try discriminate; eauto. Qed.
Lemma nth_upd_other : forall {A} (l : list A) n m x, n <> m -> nth_error (upd_nth l n x) m = nth_error l m.
Proof.
  induction l as [|a r IH]; intros [|n] [|m] x H; cbn; auto; try congruence.
Qed.

Section Run.
  Variable digest : vec -> dgst.
  Variable hard : nat.
  Hypothesis digest_inj : forall a b : vec, digest a = digest b -> a = b.

  Notation step_prog := (step_prog digest).
  Notation run_thread := (run_thread digest hard).
  Notation cstep := (cstep digest hard).
  Notation crun := (crun digest hard).
  Notation sound := (sound digest).

  Definition fops (c : cur) : list lop := map snd (c_facts c).

  Record cur_ok (g : gstate) (t : nat) (c : cur) : Prop := mkCurOk {
    co_sound : sound (c_call c) (fops c) (c_prog c);
    co_inlog : incl (c_facts c) (g_log g);
    co_stamps : forall e, In e (c_facts c) -> c_inv c <= fst e;
    co_inv : c_inv c <= g_now g;
    co_hinv : In (HInv t (c_idx c) (c_call c) (c_inv c)) (g_hist g)
  }.

  Definition res_ok (g : gstate) : Prop :=
    forall t c cl r inv res, In (HRes t c cl r inv res) (g_hist g) ->
      inv <= res /\
      exists F : list lentry, incl F (g_log g) /\ (forall e, In e F -> inv <= fst e <= res) /\
                              justified (map snd F) cl r.

  Definition log_writes_ok (g : gstate) : Prop :=
    forall k id x, In (k, LW id x) (g_log g) ->
      exists t c cl inv, In (HInv t c cl inv) (g_hist g) /\ inv <= k /\ (write_matches cl id x \/ drain_repair cl id x).

  Definition op_agrees (cold : list (N * crec)) (o : lop) : Prop :=
    match o with LW id x | LObs id x => lookup id cold = x end.

  (* the accesses logged by the latest step agree with the cold tier as that step left it *)
  Definition last_ok (g : gstate) : Prop :=
    forall e, In e (g_log g) -> S (fst e) = g_now g -> op_agrees (s_cold (g_sh g)) (snd e).

  Definition chron_ops (g : gstate) : list lop := map snd (chron (g_log g)).

  (* what holds of the log, the step counter and the cold tier alone *)
  Record LogInv (cold0 : list (N * crec)) (g : gstate) : Prop := mkLogInv {
    i_last : last_ok g;
    i_lt : forall e, In e (g_log g) -> fst e < g_now g;
    i_sorted : StronglySorted (fun a b => fst b <= fst a) (g_log g);
    i_acc : reg_accepts (reg_of cold0) (chron_ops g);
    i_after : forall id, reg_after (reg_of cold0) (chron_ops g) id = lookup id (s_cold (g_sh g))
  }.

  Record Inv (cold0 : list (N * crec)) (g : gstate) : Prop := mkInv {
    i_thr : forall t ts c, nth_error (g_thr g) t = Some ts -> t_cur ts = Some c -> cur_ok g t c;
    i_res : res_ok g;
    i_wr : log_writes_ok g;
    i_log : LogInv cold0 g
  }.

  Lemma step_prog_cold : forall s p st,
    step_prog s p = Some st ->
    let '(s1, _, ops, _) := st in
    (forall o, In o ops -> op_agrees (s_cold s1) o) /\
    reg_accepts (reg_of (s_cold s)) (rev ops) /\
    (forall j, reg_after (reg_of (s_cold s)) (rev ops) j = lookup j (s_cold s1)).
  Proof.
    intros s p st H.
    destruct p; cbn [Conc05.step_prog] in H; try discriminate; injection H as <-;
      cbn [rev app In reg_accepts reg_after s_cold set_l1 set_hot set_cold];
      try solve [repeat split; intros; try contradiction; reflexivity].
    1-3: repeat split; [intros o [<-|[]]; reflexivity].
    (* the three writes: the cold tier becomes what the register becomes *)
    2-4:
      (split; [intros o [<-|[]]; cbn [op_agrees]; rewrite ?lookup_put, ?lookup_remove, N.eqb_refl; reflexivity|];
       split; [exact I|]; intros j; unfold reg_upd, reg_of;
       rewrite ?lookup_put, ?lookup_remove, (N.eqb_sym id j); reflexivity).
    rewrite <- map_rev.
    destruct (reg_obs_list (fun id => lookup id (s_cold s)) (rev ids) (reg_of (s_cold s))) as [H1 H2];
      [reflexivity|].
    split; [|split; [exact H1 | intros j; rewrite H2; reflexivity]].
    intros o Hin. apply in_map_iff in Hin as (i & <- & _). reflexivity.
  Qed.

  (* one scheduler step logs `ops`, stamped with the step's number, and leaves the cold tier as the
     ops describe *)
  Lemma LogInv_extend : forall cold0 g sh1 ops thr' hist',
    LogInv cold0 g ->
    (forall o, In o ops -> op_agrees (s_cold sh1) o) ->
    reg_accepts (reg_of (s_cold (g_sh g))) (rev ops) ->
    (forall j, reg_after (reg_of (s_cold (g_sh g))) (rev ops) j = lookup j (s_cold sh1)) ->
    LogInv cold0 (mkG sh1 (S (g_now g)) thr' hist' (stamp (g_now g) ops ++ g_log g)).
  Proof.
    intros cold0 g sh1 ops thr' hist' [Ilast Ilt Isorted Iacc Iafter] Hagree Hacc Hafter.
    assert (Hents : forall e, In e (stamp (g_now g) ops) -> fst e = g_now g /\ In (snd e) ops)
      by (intros e; apply in_stamp).
    constructor; cbn [g_log g_now g_sh].
    - intros e Hin Hs. cbn [g_log g_now g_sh] in *. apply in_app_or in Hin as [Hin|Hin].
      + destruct (Hents _ Hin) as [_ Hop]. apply Hagree. exact Hop.
      + specialize (Ilt e Hin). lia.
    - intros e Hin. apply in_app_or in Hin as [Hin|Hin].
      + destruct (Hents _ Hin) as [-> _]. lia.
      + specialize (Ilt e Hin). lia.
    - apply SS_prepend with (now := g_now g); auto.
      + intros e He. apply (Hents e He).
      + intros e He. specialize (Ilt e He). lia.
    - unfold chron_ops, chron in *. cbn [g_log]. rewrite rev_app_distr, map_app.
      apply reg_accepts_app. split; [exact Iacc|].
      rewrite (map_rev snd (stamp _ _)), snd_stamp.
      eapply reg_accepts_ext; [|exact Hacc]. intros j. symmetry. apply Iafter.
    - intros id. unfold chron_ops, chron in *. cbn [g_log g_sh]. rewrite rev_app_distr, map_app, reg_after_app.
      rewrite (map_rev snd (stamp _ _)), snd_stamp, <- Hafter. apply reg_after_ext. exact Iafter.
  Qed.

  Definition g_ext (g g' : gstate) : Prop :=
    incl (g_log g) (g_log g') /\ incl (g_hist g) (g_hist g') /\ g_now g <= g_now g'.

  Lemma cur_ok_mono : forall g g' t c, g_ext g g' -> cur_ok g t c -> cur_ok g' t c.
  Proof.
    intros g g' t c (H1 & H2 & H3) [A B C D E]. constructor; auto.
    - eapply incl_tran; eauto.
    - lia.
  Qed.

  Lemma finish_cases : forall t now c facts p1,
    (exists r, p1 = Ret r /\ finish t now c facts p1 = (None, [HRes t (c_idx c) (c_call c) r (c_inv c) now])) \/
    finish t now c facts p1 = (Some (mkCur (c_idx c) (c_call c) (c_inv c) facts p1), []).
  Proof. intros. destruct p1; [left; eauto|right; reflexivity..]. Qed.

  Lemma start_cases : forall ts t now c todo next hinv,
    start digest hard ts t now = Some (c, todo, next, hinv) ->
    (t_cur ts = Some c /\ hinv = []) \/
    (t_cur ts = None /\ exists cl, c = mkCur (t_next ts) cl now [] (prog_of digest hard cl) /\
                                   hinv = [HInv t (t_next ts) cl now]).
  Proof.
    intros ts t now c todo next hinv H. unfold start in H. destruct (t_cur ts) as [c0|].
    - injection H as <- _ _ <-. left. auto.
    - destruct (t_todo ts) as [|cl rest]; [discriminate|]. injection H as <- _ _ <-. right. eauto.
  Qed.

  Lemma run_thread_spec : forall g t g', run_thread g t = Some g' ->
    exists ts c todo next hinv sh1 p1 ops l,
      nth_error (g_thr g) t = Some ts /\ start digest hard ts t (g_now g) = Some (c, todo, next, hinv) /\
      step_prog (g_sh g) (c_prog c) = Some (sh1, p1, ops, l) /\
      g' = (let fin := finish t (g_now g) c (stamp (g_now g) ops ++ c_facts c) p1 in
            mkG sh1 (S (g_now g)) (upd_nth (g_thr g) t (mkT (fst fin) todo next))
                (snd fin ++ hinv ++ g_hist g) (stamp (g_now g) ops ++ g_log g)).
  Proof.
    intros g t g' H. unfold Conc05.run_thread in H.
    destruct (nth_error (g_thr g) t) as [ts|]; [|discriminate].
    destruct (start digest hard ts t (g_now g)) as [[[[c todo] next] hinv]|] eqn:Est; [|discriminate].
    destruct (step_prog (g_sh g) (c_prog c)) as [[[[sh1 p1] ops] l]|] eqn:Esp; [|discriminate].
    injection H as <-. exists ts, c, todo, next, hinv, sh1, p1, ops, l. auto.
  Qed.

  Lemma inv_run_thread : forall cold0 g t g', Inv cold0 g -> run_thread g t = Some g' -> Inv cold0 g'.
  Proof.
    intros cold0 g t g' HI H.
    destruct (run_thread_spec _ _ _ H) as (ts & c & todo & next & hinv & sh1 & p1 & ops & l & Ets & Est & Esp & ->).
    clear H. cbv zeta.
    set (now := g_now g) in *.
    set (ents := stamp now ops) in *.
    set (fin := finish t now c (ents ++ c_facts c) p1).
    destruct HI as [Ithr Ires Iwr Ilog]. pose proof (i_lt _ _ Ilog) as Ilt.
    (* the call being run, as seen just after its (possible) invocation *)
    set (g0 := mkG (g_sh g) now (g_thr g) (hinv ++ g_hist g) (g_log g)).
    assert (Hc0 : cur_ok g0 t c).
    { destruct (start_cases _ _ _ _ _ _ _ Est) as [[Ec ->]|[Ec (cl & -> & ->)]].
      - eapply cur_ok_mono; [|eapply Ithr; eauto]. repeat split; cbn; try apply incl_refl. lia.
      - constructor; cbn.
        + apply sound_prog_of. exact digest_inj.
        + intros e [].
        + intros e [].
        + lia.
        + left. reflexivity. }
    destruct Hc0 as [Csound Cinlog Cstamps Cinv Chinv]. cbn [g_log g_now g_hist g0] in *.
    assert (Hents : forall e, In e ents -> fst e = now /\ In (snd e) ops) by (intros e; apply in_stamp).
    destruct (step_prog_cold _ _ _ Esp) as (Hagree & Hacc & Hafter).
    set (g' := mkG sh1 (S now) (upd_nth (g_thr g) t (mkT (fst fin) todo next))
                   (snd fin ++ hinv ++ g_hist g) (ents ++ g_log g)).
    assert (Hext : g_ext g g').
    { repeat split; cbn.
      - apply incl_appr, incl_refl.
      - apply incl_appr, incl_appr, incl_refl.
      - fold now. lia. }
    assert (Hhinv' : In (HInv t (c_idx c) (c_call c) (c_inv c)) (g_hist g')).
    { cbn. apply in_or_app. right. exact Chinv. }
    (* the call's facts after the action: in the log, stamped inside [invocation, now], and enough for
       whatever the rest of the call returns *)
    assert (Flog : incl (ents ++ c_facts c) (g_log g')) by (apply incl_app_app; [apply incl_refl|exact Cinlog]).
    assert (Fstamps : forall e, In e (ents ++ c_facts c) -> c_inv c <= fst e <= now).
    { intros e He. apply in_app_or in He as [He|He].
      - destruct (Hents e He) as [-> _]. lia.
      - split; [auto|]. specialize (Ilt e (Cinlog e He)). fold now in Ilt. lia. }
    destruct (sound_step digest _ _ _ _ _ Csound Esp) as [Fsound Hwr].
    replace (ops ++ fops c) with (map snd (ents ++ c_facts c)) in Fsound
      by (rewrite map_app; unfold ents; rewrite snd_stamp; reflexivity).
    constructor.
    - intros t' ts' c' Hn Hcur. cbn [g_thr g'] in Hn.
      destruct (Nat.eq_dec t t') as [<-|Hne].
      + rewrite (nth_upd_same _ _ _ _ Ets) in Hn. injection Hn as <-. cbn [t_cur] in Hcur.
        destruct (finish_cases t now c (ents ++ c_facts c) p1) as [(r & -> & Ef)|Ef];
          unfold fin in Hcur; rewrite Ef in Hcur; cbn [fst] in Hcur; [discriminate|].
        injection Hcur as <-. constructor; cbn [c_call c_prog c_facts c_inv c_idx];
          [exact Fsound|exact Flog|intros e He; apply (Fstamps e He)|cbn; lia|exact Hhinv'].
      + rewrite nth_upd_other in Hn by exact Hne. eapply cur_ok_mono; [exact Hext|]. eapply Ithr; eauto.
    - intros t' c' cl r inv res Hin. cbn [g_hist g'] in Hin.
      apply in_app_or in Hin as [Hin|Hin].
      + destruct (finish_cases t now c (ents ++ c_facts c) p1) as [(r0 & -> & Ef)|Ef];
          unfold fin in Hin; rewrite Ef in Hin; cbn [snd] in Hin; [|destruct Hin].
        destruct Hin as [Hin|[]]. injection Hin as <- <- <- <- <- <-.
        split; [exact Cinv|]. exists (ents ++ c_facts c). auto.
      + assert (Hin' : In (HRes t' c' cl r inv res) (g_hist g)).
        { apply in_app_or in Hin as [Hin|Hin]; [|exact Hin].
          destruct (start_cases _ _ _ _ _ _ _ Est) as [[_ ->]|[_ (cl0 & _ & ->)]]; [destruct Hin|].
          destruct Hin as [Hin|[]]. discriminate. }
        destruct (Ires _ _ _ _ _ _ Hin') as (A & F & C & D & E).
        split; [exact A|]. exists F. split; [|auto].
        eapply incl_tran; [exact C|]. apply Hext.
    - intros k id x Hin. cbn [g_log g'] in Hin. apply in_app_or in Hin as [Hin|Hin].
      + destruct (Hents _ Hin) as [Ek Hop]. cbn [fst snd] in Ek, Hop. subst k.
        exists t, (c_idx c), (c_call c), (c_inv c). split; [exact Hhinv'|]. split; [exact Cinv|].
        exact (Hwr _ _ Hop).
      + destruct (Iwr _ _ _ Hin) as (t0 & c0 & cl0 & inv0 & A & B & C).
        exists t0, c0, cl0, inv0. split; [apply Hext; exact A | auto].
    - apply LogInv_extend; assumption.
  Qed.

  Lemma inv_poke : forall cold0 g sh1,
    Inv cold0 g -> s_cold sh1 = s_cold (g_sh g) ->
    Inv cold0 (mkG sh1 (S (g_now g)) (g_thr g) (g_hist g) (g_log g)).
  Proof.
    intros cold0 g sh1 [Ithr Ires Iwr Ilog] Hc.
    assert (Hext : g_ext g (mkG sh1 (S (g_now g)) (g_thr g) (g_hist g) (g_log g))).
    { repeat split; cbn; try apply incl_refl. lia. }
    constructor; cbn [g_thr g_hist g_log g_now g_sh]; auto.
    - intros. eapply cur_ok_mono; [exact Hext|]. eapply Ithr; eauto.
    - apply (LogInv_extend cold0 g sh1 [] (g_thr g) (g_hist g) Ilog); cbn; [intros o []|exact I|].
      intros j. rewrite Hc. reflexivity.
  Qed.

  Lemma inv_cstep : forall cold0 g i g', Inv cold0 g -> cstep g i = Some g' -> Inv cold0 g'.
  Proof.
    intros cold0 g i g' HI H. destruct i as [t|id e|id h]; cbn [Conc05.cstep] in H.
    - eapply inv_run_thread; eauto.
    - injection H as <-. apply inv_poke; [exact HI | reflexivity].
    - injection H as <-. apply inv_poke; [exact HI | reflexivity].
  Qed.

  Lemma inv_init : forall sh0 threads, Inv (s_cold sh0) (ginit sh0 threads).
  Proof.
    intros sh0 threads. constructor; cbn.
    - intros t ts c Hn Hc. unfold ginit in Hn. cbn in Hn. rewrite nth_error_map in Hn.
      destruct (nth_error threads t); cbn in Hn; [|discriminate]. inversion Hn; subst. discriminate.
    - intros t c cl r inv res [].
    - intros k id x [].
    - constructor; cbn; [intros e []|intros e []|constructor|exact I|reflexivity].
  Qed.

  Lemma inv_crun : forall cold0 sched g g', Inv cold0 g -> crun g sched = Some g' -> Inv cold0 g'.
  Proof.
    induction sched as [|i r IH]; intros g g' HI H; cbn [Conc05.crun] in H.
    - injection H as <-. exact HI.
    - destruct (cstep g i) as [g1|] eqn:E; [|discriminate]. eapply IH; [|exact H]. eapply inv_cstep; eauto.
  Qed.

  Lemma reachable_inv : forall sh0 threads sched g,
    crun (ginit sh0 threads) sched = Some g -> Inv (s_cold sh0) g.
  Proof. intros sh0 threads sched g Hrun. exact (inv_crun _ _ _ _ (inv_init sh0 threads) Hrun). Qed.

  Lemma crun_app : forall a b g g', crun g (a ++ b) = Some g' -> exists g1, crun g a = Some g1 /\ crun g1 b = Some g'.
  Proof.
    induction a as [|i a IH]; intros b g g' H; cbn [app Conc05.crun] in *.
    - eauto.
    - destruct (cstep g i) as [g1|]; [|discriminate]. apply IH. exact H.
  Qed.

  Lemma cstep_now_log : forall g i g', cstep g i = Some g' ->
    g_now g' = S (g_now g) /\ exists new, g_log g' = new ++ g_log g /\ forall e, In e new -> fst e = g_now g.
  Proof.
    intros g i g' H. destruct i as [t|id e|id h]; cbn [Conc05.cstep] in H.
    - destruct (run_thread_spec _ _ _ H) as (ts & c & todo & next & hinv & sh1 & p1 & ops & l & _ & _ & _ & ->).
      cbn. split; [reflexivity|]. eexists. split; [reflexivity|].
      intros e He. apply in_stamp in He. tauto.
    - injection H as <-. cbn. split; [reflexivity|]. exists []. split; [reflexivity | intros e0 []].
    - injection H as <-. cbn. split; [reflexivity|]. exists []. split; [reflexivity | intros e0 []].
  Qed.

  (* the steps of a run are numbered from 0, and an entry stamped k was logged by step k: it agrees
     with the cold tier as the first k+1 steps leave it *)
  Lemma entry_at_prefix : forall sh0 threads sched g,
    crun (ginit sh0 threads) sched = Some g ->
    g_now g = length sched /\
    forall e, In e (g_log g) ->
      exists gk, crun (ginit sh0 threads) (firstn (S (fst e)) sched) = Some gk /\
                 op_agrees (s_cold (g_sh gk)) (snd e).
  Proof.
    intros sh0 threads sched. induction sched as [|i sched IH] using rev_ind; intros g Hrun.
    - injection Hrun as <-. split; [reflexivity|intros e []].
    - pose proof (i_log _ _ (reachable_inv _ _ _ _ Hrun)) as IL.
      destruct (crun_app _ _ _ _ Hrun) as (g1 & H1 & Hi). cbn [Conc05.crun] in Hi.
      destruct (cstep g1 i) as [g2|] eqn:E; [injection Hi as ->|discriminate].
      destruct (IH _ H1) as [N1 P1]. destruct (cstep_now_log _ _ _ E) as (N & new & L & Hst).
      split; [rewrite app_length, N, N1; cbn; lia|].
      intros e Hin. pose proof (i_last _ _ IL e Hin) as Hlast.
      rewrite L in Hin. apply in_app_or in Hin as [Hin|Hin].
      + exists g. rewrite (Hst e Hin), N1, firstn_all2 by (rewrite app_length; cbn; lia).
        split; [exact Hrun|]. apply Hlast. rewrite (Hst e Hin). lia.
      + pose proof (i_lt _ _ (i_log _ _ (reachable_inv _ _ _ _ H1)) e Hin).
        rewrite firstn_app. replace (S (fst e) - length sched) with 0 by lia.
        cbn [firstn]. rewrite app_nil_r. apply P1. exact Hin.
  Qed.

  (* what a response rests on: log entries that justify it, each observation among them being the
     cold-tier content right after its own step, a step inside the call's interval *)
  Lemma obs_lin_point : forall sh0 threads sched g t c cl r inv res,
    crun (ginit sh0 threads) sched = Some g -> In (HRes t c cl r inv res) (g_hist g) ->
    exists F : list lentry, justified (map snd F) cl r /\
      forall id x, In (LObs id x) (map snd F) ->
        exists k gk, inv <= k <= res /\ crun (ginit sh0 threads) (firstn (S k) sched) = Some gk /\
                     lookup id (s_cold (g_sh gk)) = x.
  Proof.
    intros sh0 threads sched g t c cl r inv res Hrun Hres.
    destruct (i_res _ _ (reachable_inv _ _ _ _ Hrun) _ _ _ _ _ _ Hres) as (_ & F & Hincl & Hst & J).
    exists F. split; [exact J|]. intros id x Hin. apply in_map_snd in Hin as [k Hin].
    destruct (proj2 (entry_at_prefix _ _ _ _ Hrun) _ (Hincl _ Hin)) as (gk & Hk & Hag).
    exists k, gk. split; [apply (Hst _ Hin)|]. split; [exact Hk|exact Hag].
  Qed.

  Definition call_linearised (L : list lentry) (cl : call) (inv res : nat) : Prop :=
    match cl with
    | CInsert id v m =>
        exists k rc, In (k, LW id (Some rc)) L /\ inv <= k <= res /\ c_vec rc = v /\ c_meta rc = meta_canon m
    | CDelete id => exists k, In (k, LW id None) L /\ inv <= k <= res
    | _ => True
    end.

  (* a completed call's observations and its own write are entries of the log inside its interval *)
  Lemma res_linearised : forall g t c cl r inv res, res_ok g -> In (HRes t c cl r inv res) (g_hist g) ->
    inv <= res /\
    (forall id val, In (id, val) (vec_components r) ->
       exists k x, In (k, LObs id x) (chron (g_log g)) /\ inv <= k <= res /\ option_map c_vec x = val) /\
    (forall id m, In (id, m) (meta_components r) ->
       exists k x, In (k, LObs id x) (chron (g_log g)) /\ inv <= k <= res /\ option_map c_meta x = Some m) /\
    call_linearised (chron (g_log g)) cl inv res.
  Proof.
    intros g t c cl r inv res Ires Hres.
    destruct (Ires _ _ _ _ _ _ Hres) as (A & F & Hincl & Hst & (Jv & Jm & Jw)).
    assert (Hent : forall o, In o (map snd F) -> exists k, In (k, o) (chron (g_log g)) /\ inv <= k <= res).
    { intros o Hin. apply in_map_snd in Hin as [k Hin]. exists k. split; [|apply (Hst _ Hin)].
      unfold chron. apply -> in_rev. auto. }
    split; [exact A|]. split; [|split].
    - intros id val Hc. destruct (Jv _ _ Hc) as (x & Hin & Ex). destruct (Hent _ Hin) as (k & H1 & H2). eauto.
    - intros id m Hc. destruct (Jm _ _ Hc) as (x & Hin & Ex). destruct (Hent _ Hin) as (k & H1 & H2). eauto.
    - destruct cl; cbn [call_linearised write_just] in *; auto.
      destruct Jw as (rc & Hin & E1 & E2). destruct (Hent _ Hin) as (k & H1 & H2). eauto 6.
  Qed.

  (* every write that took effect was issued by an invoked insert/delete with exactly those arguments,
     i.e. no emergency-drain repair write happened in this run *)
  Definition client_writes_only (g : gstate) : Prop :=
    forall k id x, In (k, LW id x) (chron (g_log g)) ->
      exists t c cl inv, In (HInv t c cl inv) (g_hist g) /\ inv <= k /\ write_matches cl id x.

  Lemma linearised_write : forall L clw invw resw id,
    call_linearised L clw invw resw -> ((exists v m, clw = CInsert id v m) \/ clw = CDelete id) ->
    exists kW xW, In (kW, LW id xW) L /\ invw <= kW <= resw /\ write_matches clw id xW.
  Proof.
    intros L clw invw resw id HLw [(v & m & ->)| ->]; cbn [call_linearised] in HLw.
    - destruct HLw as (kW & rc & H1 & H2 & H3 & H4). exists kW, (Some rc). split; [exact H1|]. split; [exact H2|].
      cbn. split; [reflexivity|]. exists rc. auto.
    - destruct HLw as (kW & H1 & H2). exists kW, None. split; [exact H1|]. split; [exact H2|]. cbn. auto.
  Qed.

  (* two observations of one id, made by steps kv and km of a run, see the same record unless a write
     of that id took effect between them; observations of one step see the state that step left *)
  Lemma obs_same : forall sh0 threads sched g id kv km xv xm,
    crun (ginit sh0 threads) sched = Some g ->
    In (kv, LObs id xv) (chron (g_log g)) -> In (km, LObs id xm) (chron (g_log g)) ->
    (forall kw xw, In (kw, LW id xw) (chron (g_log g)) -> ~ (Nat.min kv km <= kw <= Nat.max kv km)) ->
    xv = xm.
  Proof.
    intros sh0 threads sched g id kv km xv xm Hrun Hinv Hinm Hno.
    destruct (i_log _ _ (reachable_inv _ _ _ _ Hrun)) as [_ _ HS HA _]. apply SS_rev in HS.
    destruct (Nat.lt_trichotomy kv km) as [Hlt|[Heq|Hgt]].
    - eapply obs_same_without_write; eauto. intros kw xw Hw Hb. apply (Hno kw xw Hw). lia.
    - subst km.
      assert (Hl1 : In (kv, LObs id xv) (g_log g)) by (apply in_rev; exact Hinv).
      assert (Hl2 : In (kv, LObs id xm) (g_log g)) by (apply in_rev; exact Hinm).
      destruct (proj2 (entry_at_prefix _ _ _ _ Hrun) _ Hl1) as (g1 & R1 & A1).
      destruct (proj2 (entry_at_prefix _ _ _ _ Hrun) _ Hl2) as (g2 & R2 & A2).
      cbn [fst snd op_agrees] in *. rewrite R1 in R2. inversion R2; subst g2. congruence.
    - symmetry. eapply obs_same_without_write; eauto. intros kw xw Hw Hb. apply (Hno kw xw Hw). lia.
  Qed.
End Run.
