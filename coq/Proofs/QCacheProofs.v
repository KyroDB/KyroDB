(* Proofs about Model/QCache.v (C07, and the size bound used by C20). *)
From Coq Require Import QArith Qminmax Qround Qabs List NArith ZArith Bool Arith Lqa Lia.
From Kyro Require Import Model.QCache Proofs.ListFacts.
Import ListNotations.
Open Scope Q_scope.

Lemma sqnn (x : Q) : 0 <= x * x.
Proof. nra. Qed.
Lemma sq_le_of (x y : Q) : 0 <= y -> x * x <= y * y -> x <= y.
Proof. intros. nra. Qed.
Lemma sq_lt_of (x y : Q) : 0 <= y -> x * x < y * y -> x < y.
Proof. intros. nra. Qed.
Lemma mul_le_l (c x y : Q) : 0 <= c -> x <= y -> c * x <= c * y.
Proof. intros. nra. Qed.
Lemma mul_lt_l (c x y : Q) : 0 < c -> x < y -> c * x < c * y.
Proof. intros. nra. Qed.
Lemma sq_mono (x y : Q) : 0 <= x -> x <= y -> x * x <= y * y.
Proof. intros. nra. Qed.
Lemma sq_le_abs (x y : Q) : x <= y -> y <= 0 -> y * y <= x * x.
Proof. intros. nra. Qed.
Lemma mul_pos (x y : Q) : 0 < x -> 0 < y -> 0 < x * y.
Proof. intros. nra. Qed.

Lemma Qleb_iff x y : Qleb x y = true <-> x <= y.
Proof. unfold Qleb. apply Qle_bool_iff. Qed.
Lemma Qleb_false x y : Qleb x y = false <-> y < x.
Proof.
  unfold Qleb. split; intro H.
  - apply Qnot_le_lt. intro Hc. apply Qle_bool_iff in Hc. congruence.
  - destruct (Qle_bool x y) eqn:E; [|reflexivity]. apply Qle_bool_iff in E. lra.
Qed.
Lemma Qltb_iff x y : Qltb x y = true <-> x < y.
Proof. unfold Qltb. rewrite negb_true_iff. apply Qleb_false. Qed.
Lemma Qltb_false x y : Qltb x y = false <-> y <= x.
Proof. unfold Qltb. rewrite negb_false_iff. apply Qleb_iff. Qed.

Lemma Qleb_spec x y : BoolSpec (x <= y) (y < x) (Qleb x y).
Proof. destruct (Qleb x y) eqn:E; constructor; [apply Qleb_iff | apply Qleb_false]; exact E. Qed.
Lemma Qltb_spec x y : BoolSpec (x < y) (y <= x) (Qltb x y).
Proof. destruct (Qltb x y) eqn:E; constructor; [apply Qltb_iff | apply Qltb_false]; exact E. Qed.

Lemma cs_step (a b s A B : Q) : 0 <= A -> 0 <= B -> s * s <= A * B ->
  (a * b + s) * (a * b + s) <= (a * a + A) * (b * b + B).
Proof.
  intros HA HB Hs.
  pose proof (sqnn (a*a*B - b*b*A)) as H1.
  pose proof (sqnn a) as Ha. pose proof (sqnn b) as Hb.
  assert (Hab : 0 <= 4*((a*a)*(b*b))) by (pose proof (sqnn (a*b)); lra).
  pose proof (mul_le_l _ _ _ Hab Hs) as H4.
  assert (H2: (2*a*b*s)*(2*a*b*s) <= (a*a*B + b*b*A)*(a*a*B + b*b*A)) by lra.
  assert (H3: 0 <= a*a*B + b*b*A).
  { pose proof (mul_le_l _ _ _ Ha HB). pose proof (mul_le_l _ _ _ Hb HA). lra. }
  pose proof (sq_le_of _ _ H3 H2). lra.
Qed.

Lemma pstrip_spec (a b : positive) :
  (Zpos a * Zpos (snd (pstrip a b)) = Zpos (fst (pstrip a b)) * Zpos b)%Z.
Proof.
  revert b. induction a as [a IH|a IH|]; intro b; try reflexivity.
  destruct b as [b|b|]; try reflexivity.
  cbn [pstrip]. specialize (IH b). lia.
Qed.

Lemma qnorm_correct (q : Q) : qnorm q == q.
Proof.
  destruct q as [n d]. unfold qnorm. cbn [Qnum Qden]. destruct n as [|a|a].
  - reflexivity.
  - pose proof (pstrip_spec a d) as H. destruct (pstrip a d) as [a' b']. cbn [fst snd] in H.
    unfold Qeq. cbn [Qnum Qden]. lia.
  - pose proof (pstrip_spec a d) as H. destruct (pstrip a d) as [a' b']. cbn [fst snd] in H.
    unfold Qeq. cbn [Qnum Qden]. lia.
Qed.

Lemma sumsq_nonneg (a : vec) : 0 <= sumsq a.
Proof. induction a as [|x a IH]; cbn [sumsq]; [lra|]. rewrite qnorm_correct. pose proof (sqnn x). lra. Qed.

Lemma cauchy_schwarz (a b : vec) : dot a b * dot a b <= sumsq a * sumsq b.
Proof.
  revert b. induction a as [|x a IH]; intro b.
  - cbn [dot sumsq]. lra.
  - destruct b as [|y b].
    + cbn [dot]. change (sumsq []) with 0. lra.
    + cbn [dot sumsq]. rewrite !qnorm_correct. apply cs_step; [apply sumsq_nonneg|apply sumsq_nonneg|apply IH].
Qed.

Lemma dot_nil_r (a : vec) : dot a [] = 0.
Proof. destruct a; reflexivity. Qed.
Lemma l2sq_nil_r (a : vec) : l2sq a [] = 0.
Proof. destruct a; reflexivity. Qed.

Lemma dot_split (p : nat) (a b : vec) :
  dot a b == dot (firstn p a) (firstn p b) + dot (skipn p a) (skipn p b).
Proof.
  revert a b. induction p as [|p IH]; intros a b.
  - cbn [firstn skipn dot]. lra.
  - destruct a as [|x a]; [cbn [firstn skipn dot]; lra|].
    destruct b as [|y b]; [cbn [firstn skipn]; rewrite !dot_nil_r; lra|].
    cbn [firstn skipn dot]. rewrite !qnorm_correct. rewrite (IH a b). lra.
Qed.

Lemma l2sq_nonneg (a b : vec) : 0 <= l2sq a b.
Proof.
  revert b. induction a as [|x a IH]; intro b; [cbn [l2sq]; lra|].
  destruct b as [|y b]; cbn [l2sq]; [lra|]. rewrite qnorm_correct. pose proof (sqnn (x - y)). pose proof (IH b). lra.
Qed.

Lemma l2sq_prefix_le (p : nat) (a b : vec) : l2sq (firstn p a) (firstn p b) <= l2sq a b.
Proof.
  revert a b. induction p as [|p IH]; intros a b.
  - cbn [firstn l2sq]. apply l2sq_nonneg.
  - destruct a as [|x a]; [cbn [firstn l2sq]; lra|].
    destruct b as [|y b]; [cbn [firstn]; rewrite !l2sq_nil_r; lra|].
    cbn [firstn l2sq]. rewrite !qnorm_correct. pose proof (IH a b). lra.
Qed.

(* T > 0, P >= 0:  not (P + sqrt a >= T sqrt b)  and  td <= sqrt a   ==>   P + td < T sqrt b *)
Lemma surd_case_A (P a T b td : Q) :
  0 <= P -> td * td <= a ->
  0 < T * T * b - a - P * P ->
  4 * (P * P) * a < (T * T * b - a - P * P) * (T * T * b - a - P * P) ->
  (P + td) * (P + td) < T * T * b.
Proof.
  intros HP Htd HR Hsq. set (R := T * T * b - a - P * P) in *.
  assert (Hu : (2 * P * td) * (2 * P * td) < R * R).
  { assert (0 <= 4 * (P * P)) by (pose proof (sqnn P); lra).
    pose proof (mul_le_l _ _ _ H Htd). lra. }
  assert (2 * P * td < R) by (apply sq_lt_of; lra).
  unfold R in *. lra.
Qed.

(* T > 0, P < 0 *)
Lemma surd_case_B (P a T b td : Q) :
  P < 0 -> 0 <= b -> td * td <= a ->
  (a - T * T * b - P * P < 0 \/
   (a - T * T * b - P * P) * (a - T * T * b - P * P) < 4 * (T * T) * (P * P) * b) ->
  P + td < 0 \/ (P + td) * (P + td) < T * T * b.
Proof.
  intros HP Hb Htd Hc. set (d := P + td).
  destruct (Qlt_le_dec d 0) as [Hd|Hd]; [left; exact Hd|].
  destruct (Qlt_le_dec (d * d) (T * T * b)) as [Hdd|Hdd]; [right; exact Hdd|].
  exfalso.
  assert (Etd : td == d - P) by (unfold d; lra).
  assert (Htd2 : td * td == d * d - 2 * P * d + P * P) by (rewrite Etd; lra).
  assert (Hpd : 0 <= - P * d) by (apply Qmult_le_0_compat; lra).
  set (L := a - T * T * b - P * P) in *.
  assert (HL : 2 * (- P * d) <= L) by (unfold L; lra).
  destruct Hc as [Hc|Hc]; [lra|].
  assert (H1 : (2 * (- P * d)) * (2 * (- P * d)) <= L * L) by (apply sq_mono; lra).
  assert (H2 : (P * P) * (T * T * b) <= (P * P) * (d * d)) by (apply mul_le_l; [apply sqnn|exact Hdd]).
  lra.
Qed.

(* T <= 0 (then P < 0) *)
Lemma surd_case_C (P a T b td : Q) :
  P < 0 -> 0 <= a -> 0 <= b -> td * td <= a ->
  0 < P * P - a - T * T * b ->
  4 * (T * T) * a * b < (P * P - a - T * T * b) * (P * P - a - T * T * b) ->
  P + td < 0 /\ T * T * b < (P + td) * (P + td).
Proof.
  intros HP Ha Hb Htd HR Hsq. set (R := P * P - a - T * T * b) in *.
  assert (HTb : 0 <= T * T * b) by (apply Qmult_le_0_compat; [apply sqnn|exact Hb]).
  assert (Hd : P + td < 0).
  { assert (td < - P); [|lra]. apply sq_lt_of; [lra|]. unfold R in HR. lra. }
  split; [exact Hd|].
  set (v := - (P + td)).
  destruct (Qlt_le_dec (T * T * b) (v * v)) as [Hv|Hv].
  - unfold v in Hv. lra.
  - exfalso.
    assert (EP : P == - (td + v)) by (unfold v; lra).
    assert (EP2 : P * P == td * td + 2 * (td * v) + v * v) by (rewrite EP; lra).
    assert (HR2 : R <= 2 * (td * v)) by (unfold R; lra).
    assert (H1 : R * R <= (2 * (td * v)) * (2 * (td * v))) by (apply sq_mono; lra).
    assert (H2 : (td * td) * (v * v) <= a * (T * T * b)).
    { apply Qmult_le_compat_nonneg; split; [apply sqnn|exact Htd|apply sqnn|exact Hv]. }
    lra.
Qed.

(* T > 1 *)
Lemma surd_case_D (d T b : Q) : 1 < T -> 0 < b -> d * d <= b -> d * d < T * T * b.
Proof.
  intros HT Hb Hd.
  assert (1 < T * T) by nra.
  assert (b * 1 < b * (T * T)) by (apply mul_lt_l; lra). lra.
Qed.

Lemma surd_ge_false_sound (P a T b td : Q) :
  0 <= a -> 0 < b -> td * td <= a -> (P + td) * (P + td) <= b ->
  surd_ge P a T b = false ->
  (* conclusion: not (P + td >= T sqrt b), in the squared form used by dist_le Cosine *)
  (if Qleb T 0 then Qleb 0 (P + td) || Qleb ((P + td) * (P + td)) (T * T * b)
   else Qleb 0 (P + td) && Qleb (T * T * b) ((P + td) * (P + td))) = false.
Proof.
  intros Ha Hb Htd Hfull Hs. unfold surd_ge in Hs.
  destruct (Qleb_spec T 0) as [HT|HT].
  - destruct (Qleb_spec 0 P) as [HP|HP]; [discriminate|].
    destruct (Qleb_spec (P * P - a - T * T * b) 0) as [HR|HR]; [discriminate|].
    apply Qleb_false in Hs.
    destruct (surd_case_C P a T b td) as [H1 H2]; try assumption; try lra.
    apply orb_false_iff. split; apply Qleb_false; assumption.
  - destruct (Qleb_spec 0 P) as [HP|HP].
    + destruct (Qleb_spec (T * T * b - a - P * P) 0) as [HR|HR]; [discriminate|].
      apply Qleb_false in Hs.
      apply andb_false_iff. right. apply Qleb_false. exact (surd_case_A P a T b td HP Htd HR Hs).
    + assert (Hc : a - T * T * b - P * P < 0 \/
                   (a - T * T * b - P * P) * (a - T * T * b - P * P) < 4 * (T * T) * (P * P) * b).
      { destruct (Qltb_spec (a - T * T * b - P * P) 0) as [HL|HL]; [left; exact HL|].
        right. apply Qleb_false in Hs. exact Hs. }
      destruct (surd_case_B P a T b td HP (Qlt_le_weak _ _ Hb) Htd Hc) as [H|H];
        apply andb_false_iff; [left|right]; apply Qleb_false; exact H.
Qed.

(* dist_le = false is the sqrt-free statement of  distance(q,x) > w *)
Theorem prefilter_sound (m : metric) (p : nat) (q x : vec) (w : Q) :
  length q = length x ->
  can_affect m p q x w = false -> dist_le m q x w = false.
Proof.
  intros Hlen H. unfold can_affect in H.
  rewrite Hlen, Nat.eqb_refl in H. cbn [negb] in H.
  (* dot q x = P + td: the prefilter computes the prefix part P and bounds the tail by
     Cauchy-Schwarz, td^2 <= a *)
  pose proof (dot_split p q x) as Hsplit.
  pose proof (cauchy_schwarz (skipn p q) (skipn p x)) as Htail.
  set (P := dot (firstn p q) (firstn p x)) in *.
  set (td := dot (skipn p q) (skipn p x)) in *.
  set (a := sumsq (skipn p q) * sumsq (skipn p x)) in *.
  destruct m; unfold dist_le.
  - apply Qleb_false in H. unfold Qsq in H.
    pose proof (l2sq_prefix_le p q x) as Hpre.
    destruct (Qlt_le_dec w 0) as [Hw|Hw].
    + apply andb_false_iff. left. apply Qleb_false. exact Hw.
    + rewrite (Q.max_l w 0 Hw) in H. apply andb_false_iff. right. apply Qleb_false. lra.
  - set (b := sumsq q * sumsq x) in *.
    destruct (Qleb b 0) eqn:Hb; [discriminate|].
    destruct (Qleb (1 - w) (-1)) eqn:HT1; [discriminate|].
    apply Qleb_false in Hb. apply Qleb_false in HT1.
    pose proof (cauchy_schwarz q x) as Hcs. fold b in Hcs.
    destruct (Qltb 1 (1 - w)) eqn:HT2.
    + apply Qltb_iff in HT2.
      assert (HT0 : Qleb (1 - w) 0 = false) by (apply Qleb_false; lra).
      rewrite HT0. apply andb_false_iff. right. apply Qleb_false.
      apply surd_case_D; assumption.
    + assert (Ha : 0 <= a) by (apply Qmult_le_0_compat; apply sumsq_nonneg).
      assert (Hfull : (P + td) * (P + td) <= b) by (rewrite <- Hsplit; exact Hcs).
      pose proof (surd_ge_false_sound P a (1 - w) b td Ha Hb Htail Hfull H) as Hs.
      (* rewriting with == needs Qle_bool, which is registered as a morphism *)
      unfold Qleb in *. rewrite !Hsplit. exact Hs.
  - apply orb_false_iff in H. destruct H as [H1 H2].
    apply Qleb_false in H1. apply Qleb_false in H2.
    (* sqrt a < c and td <= sqrt a *)
    assert (Hlt : td < (1 - w) - P) by (apply sq_lt_of; lra).
    apply Qleb_false. rewrite Hsplit. lra.
Qed.

Lemma false_of_true (a b : bool) : (b = true -> a = true) -> a = false -> b = false.
Proof. destruct a, b; intuition discriminate. Qed.

Lemma dist_lt_le (m : metric) (q x : vec) (w : Q) :
  dist_le m q x w = false -> dist_lt m q x w = false.
Proof.
  apply false_of_true. intro E.
  destruct m; unfold dist_le, dist_lt in *.
  - rewrite andb_true_iff, !Qltb_iff in E. rewrite andb_true_iff, !Qleb_iff. lra.
  - set (T := 1 - w) in *. set (b := sumsq q * sumsq x) in *. set (d := dot q x) in *.
    destruct (Qleb_spec b 0); [rewrite Qltb_iff in E; apply Qleb_iff; lra|].
    destruct (Qltb_spec T 0), (Qleb_spec T 0); try lra.
    + rewrite orb_true_iff, Qleb_iff, Qltb_iff in E. rewrite orb_true_iff, !Qleb_iff. lra.
    + rewrite andb_true_iff, !Qltb_iff in E. rewrite orb_true_iff, !Qleb_iff. lra.
    + rewrite andb_true_iff, !Qltb_iff in E. rewrite andb_true_iff, !Qleb_iff. lra.
  - rewrite Qltb_iff in E. apply Qleb_iff. lra.
Qed.

Lemma zlist_eqb_eq (a b : list Z) : zlist_eqb a b = true <-> a = b.
Proof.
  revert b. induction a as [|x a IH]; intros [|y b]; cbn [zlist_eqb]; split; intro H;
    try reflexivity; try discriminate.
  - apply andb_true_iff in H. destruct H as [H1 H2]. apply Z.eqb_eq in H1. apply IH in H2. congruence.
  - inversion H; subst. rewrite Z.eqb_refl. cbn. apply IH. reflexivity.
Qed.

Lemma key_eqb_eq (a b : key) : key_eqb a b = true <-> a = b.
Proof.
  destruct a as [s1 k1], b as [s2 k2]. unfold key_eqb. cbn [fst snd]. split; intro H.
  - apply andb_true_iff in H. destruct H as [H1 H2]. apply N.eqb_eq in H1. apply zlist_eqb_eq in H2.
    congruence.
  - inversion H; subst. rewrite N.eqb_refl. cbn. apply zlist_eqb_eq. reflexivity.
Qed.

Lemma key_eqb_refl (a : key) : key_eqb a a = true.
Proof. apply key_eqb_eq. reflexivity. Qed.

Lemma key_eqb_neq (a b : key) : key_eqb a b = false <-> a <> b.
Proof.
  split; intro H.
  - intro E. apply key_eqb_eq in E. congruence.
  - destruct (key_eqb a b) eqn:E; [|reflexivity]. apply key_eqb_eq in E. contradiction.
Qed.

Lemma key_mem_in (k : key) (ks : list key) : key_mem k ks = true <-> In k ks.
Proof.
  unfold key_mem. rewrite existsb_exists. split.
  - intros [x [Hx E]]. apply key_eqb_eq in E. subst. exact Hx.
  - intro H. exists k. split; [exact H|apply key_eqb_refl].
Qed.

Lemma key_dedup_in (k : key) (ks : list key) : In k (key_dedup ks) <-> In k ks.
Proof.
  induction ks as [|x ks IH]; cbn [key_dedup fold_right]; [tauto|].
  fold (key_dedup ks). destruct (key_mem x (key_dedup ks)) eqn:E.
  - apply key_mem_in in E. split; intro H.
    + right. apply IH. exact H.
    + destruct H as [H|H]; [subst; exact E|apply IH; exact H].
  - cbn [In]. rewrite IH. tauto.
Qed.

Lemma n_mem_in (x : N) (l : list N) : n_mem x l = true <-> In x l.
Proof.
  induction l as [|y l IH]; cbn [n_mem In]; [split; [discriminate|tauto]|].
  rewrite orb_true_iff, IH, N.eqb_eq. split; intros [H|H]; auto.
Qed.

Lemma n_dedup_in (x : N) (l : list N) : In x (n_dedup l) <-> In x l.
Proof.
  induction l as [|y l IH]; cbn [n_dedup]; [tauto|].
  destruct (n_mem y l) eqn:E.
  - apply n_mem_in in E. rewrite IH. cbn [In]. split; [tauto|]. intros [H|H]; [subst; exact E|exact H].
  - cbn [In]. rewrite IH. tauto.
Qed.

Definition e_ids (e : entry) : list N := map fst (e_results e).

Lemma result_ids_in (id : N) (rs : list result) : In id (result_ids rs) <-> In id (map fst rs).
Proof. apply n_dedup_in. Qed.

Lemma find_entry_find (k : key) (es : list entry) : find_entry k es = find (fun e => key_eqb (e_key e) k) es.
Proof. induction es as [|e r IH]; cbn [find_entry find]; [reflexivity|]. rewrite IH. reflexivity. Qed.

Lemma find_entry_some (k : key) (es : list entry) (e : entry) :
  find_entry k es = Some e -> In e es /\ e_key e = k.
Proof. rewrite find_entry_find. intro H. apply find_some in H. rewrite key_eqb_eq in H. exact H. Qed.

Lemma find_entry_none (k : key) (es : list entry) :
  find_entry k es = None -> forall e, In e es -> e_key e <> k.
Proof. rewrite find_entry_find. intros H e He. apply key_eqb_neq. exact (find_none _ _ H e He). Qed.

Lemma find_entry_in (k : key) (es : list entry) (e : entry) :
  In e es -> e_key e = k -> exists e', find_entry k es = Some e'.
Proof.
  intros He Hk. destruct (find_entry k es) eqn:E; [eexists; reflexivity|].
  exfalso. exact (find_entry_none _ _ E _ He Hk).
Qed.

Lemma remove_key_in (k : key) (es : list entry) (e : entry) :
  In e (remove_key k es) <-> In e es /\ e_key e <> k.
Proof.
  unfold remove_key. rewrite filter_In, negb_true_iff, key_eqb_neq. tauto.
Qed.

Lemma remove_key_length (k : key) (es : list entry) :
  (length (remove_key k es) <= length es)%nat.
Proof. apply filter_length_le. Qed.

Lemma remove_key_length_found (k : key) (es : list entry) (e : entry) :
  find_entry k es = Some e -> (S (length (remove_key k es)) <= length es)%nat.
Proof.
  unfold remove_key. induction es as [|x es IH]; cbn [find_entry filter length]; [discriminate|].
  destruct (key_eqb (e_key x) k) eqn:E; cbn [negb]; intro H.
  - pose proof (remove_key_length k es) as L. unfold remove_key in L. lia.
  - cbn [length]. specialize (IH H). lia.
Qed.

Lemma remove_key_none (k : key) (es : list entry) :
  find_entry k es = None -> remove_key k es = es.
Proof.
  unfold remove_key. induction es as [|x es IH]; cbn [find_entry filter]; [reflexivity|].
  destruct (key_eqb (e_key x) k) eqn:E; [discriminate|]. cbn [negb]. intro H. rewrite IH; auto.
Qed.

Lemma touch_in (k : key) (es : list entry) (e : entry) : In e (touch k es) -> In e es.
Proof.
  unfold touch. destruct (find_entry k es) eqn:E; [|tauto].
  intros [H|H]; [subst; apply (find_entry_some _ _ _ E)|apply remove_key_in in H; tauto].
Qed.

Lemma touch_length (k : key) (es : list entry) : (length (touch k es) <= length es)%nat.
Proof.
  unfold touch. destruct (find_entry k es) eqn:E; [|lia].
  cbn [length]. apply (remove_key_length_found _ _ _ E).
Qed.

Definition keys (es : list entry) : list key := map e_key es.

Lemma nodup_remove_key (k : key) (es : list entry) : NoDup (keys es) -> NoDup (keys (remove_key k es)).
Proof. apply (NoDup_map_filter e_key _ es). Qed.

Lemma not_in_keys_remove (k : key) (es : list entry) : ~ In k (keys (remove_key k es)).
Proof.
  unfold keys. intro H. apply in_map_iff in H. destruct H as [y [Hy1 Hy2]].
  apply remove_key_in in Hy2. tauto.
Qed.

Lemma nodup_touch (k : key) (es : list entry) : NoDup (keys es) -> NoDup (keys (touch k es)).
Proof.
  unfold touch. destruct (find_entry k es) eqn:E; [|tauto]. intro H.
  destruct (find_entry_some _ _ _ E) as [_ Hk]. unfold keys. cbn [map]. rewrite Hk.
  constructor; [apply not_in_keys_remove|apply nodup_remove_key; exact H].
Qed.

Lemma find_entry_nodup (es : list entry) (e : entry) :
  NoDup (keys es) -> In e es -> find_entry (e_key e) es = Some e.
Proof.
  intros Hnd He. destruct (find_entry_in _ es e He eq_refl) as [e' E]. rewrite E. f_equal.
  destruct (find_entry_some _ _ _ E). apply (NoDup_map_inj e_key es); auto.
Qed.

Lemma find_entry_touch (k : key) (es : list entry) (e : entry) :
  find_entry k es = Some e -> find_entry k (touch k es) = Some e.
Proof.
  intro H. unfold touch. rewrite H. cbn [find_entry].
  rewrite (proj2 (find_entry_some _ _ _ H)), key_eqb_refl. reflexivity.
Qed.

Lemma touch_in_rev (k : key) (es : list entry) (e : entry) :
  NoDup (keys es) -> In e es -> In e (touch k es).
Proof.
  intros Hnd He. unfold touch. destruct (find_entry k es) eqn:E; [|exact He].
  destruct (find_entry_some _ _ _ E) as [H1 H2].
  destruct (key_eqb (e_key e) k) eqn:Ek.
  - apply key_eqb_eq in Ek. left. apply (NoDup_map_inj e_key es); auto. congruence.
  - right. apply remove_key_in. split; [exact He|apply key_eqb_neq; exact Ek].
Qed.

Lemma drop_last_spec (es : list entry) :
  match drop_last es with
  | (es', Some v) => es = es' ++ [v]
  | (es', None) => es = [] /\ es' = []
  end.
Proof.
  induction es as [|e r IH]; cbn [drop_last]; [auto|].
  destruct r as [|e2 r2]; [reflexivity|].
  destruct (drop_last (e2 :: r2)) as [r' [v|]].
  - rewrite IH. reflexivity.
  - destruct IH as [IH _]. discriminate.
Qed.

(* rget/rdel and c_get/c_del are this lookup and this removal at two value types *)
Section Assoc.
  Context {A B : Type} (none : B) (some : A -> B).

  Fixpoint aget (l : list (N * A)) (id : N) : B :=
    match l with
    | [] => none
    | (i, a) :: l' => if N.eqb i id then some a else aget l' id
    end.

  Fixpoint adel (l : list (N * A)) (id : N) : list (N * A) :=
    match l with
    | [] => []
    | (i, a) :: l' => if N.eqb i id then adel l' id else (i, a) :: adel l' id
    end.

  Lemma aget_adel l id id' : aget (adel l id) id' = if N.eqb id id' then none else aget l id'.
  Proof.
    induction l as [|[i a] l IH]; cbn [adel aget].
    - destruct (N.eqb id id'); reflexivity.
    - destruct (N.eqb_spec i id) as [->|E1]; [rewrite IH; destruct (N.eqb id id'); reflexivity|].
      cbn [aget]. rewrite IH. destruct (N.eqb_spec i id') as [->|E2]; [|reflexivity].
      apply N.eqb_neq in E1. rewrite N.eqb_sym, E1. reflexivity.
  Qed.
End Assoc.

Lemma rget_rdel (r : list (N * list key)) (id id' : N) :
  rget (rdel r id) id' = if N.eqb id id' then [] else rget r id'.
Proof. exact (aget_adel [] (fun ks => ks) r id id'). Qed.

Lemma c_get_del c id id' : c_get (c_del c id) id' = if N.eqb id id' then None else c_get c id'.
Proof. exact (aget_adel None Some c id id'). Qed.

Lemma rget_rset (r : list (N * list key)) (id id' : N) (ks : list key) :
  rget (rset r id ks) id' = if N.eqb id id' then ks else rget r id'.
Proof.
  unfold rset. destruct ks as [|k ks].
  - rewrite rget_rdel. reflexivity.
  - cbn [rget]. rewrite rget_rdel. destruct (N.eqb id id'); reflexivity.
Qed.

Lemma index_ids_spec (ids : list N) (r : list (N * list key)) (k k' : key) (id : N) :
  In k' (rget (index_ids r k ids) id) <-> In k' (rget r id) \/ (k' = k /\ In id ids).
Proof.
  unfold index_ids. revert r. induction ids as [|i ids IH]; intro r; cbn [fold_left In]; [tauto|].
  rewrite IH, rget_rset. destruct (N.eqb i id) eqn:E.
  - apply N.eqb_eq in E. subst i. destruct (key_mem k (rget r id)) eqn:M.
    + apply key_mem_in in M. intuition (subst; auto).
    + rewrite in_app_iff. cbn [In]. intuition (subst; auto).
  - apply N.eqb_neq in E. intuition (subst; auto).
Qed.

Lemma unindex_ids_spec (ids : list N) (r : list (N * list key)) (k k' : key) (id : N) :
  In k' (rget (unindex_ids r k ids) id) <-> In k' (rget r id) /\ ~ (k' = k /\ In id ids).
Proof.
  unfold unindex_ids. revert r. induction ids as [|i ids IH]; intro r; cbn [fold_left In]; [tauto|].
  rewrite IH, rget_rset. destruct (N.eqb i id) eqn:E.
  - apply N.eqb_eq in E. subst i. rewrite filter_In, negb_true_iff, key_eqb_neq. tauto.
  - apply N.eqb_neq in E. tauto.
Qed.

Lemma dist_lt_mono (m : metric) (q v : vec) (w w' : Q) :
  dist_lt m q v w = false -> w' <= w -> dist_lt m q v w' = false.
Proof.
  intros H Hw. revert H. apply false_of_true. intro E.
  destruct m; unfold dist_lt in *.
  - rewrite andb_true_iff, !Qltb_iff in E. rewrite andb_true_iff, !Qltb_iff.
    assert (w' * w' <= w * w) by (apply sq_mono; lra). lra.
  - set (b := sumsq q * sumsq v) in *. set (d := dot q v) in *.
    destruct (Qleb_spec b 0) as [Eb|Eb]; [rewrite Qltb_iff in E; apply Qltb_iff; lra|].
    destruct (Qltb_spec (1 - w') 0), (Qltb_spec (1 - w) 0); try lra.
    + (* T <= T' < 0: T'^2 b <= T^2 b *)
      rewrite orb_true_iff, Qleb_iff, Qltb_iff in E. rewrite orb_true_iff, Qleb_iff, Qltb_iff.
      assert (Hsq : (1 - w') * (1 - w') <= (1 - w) * (1 - w)) by (apply sq_le_abs; lra).
      pose proof (mul_le_l b _ _ (Qlt_le_weak _ _ Eb) Hsq). lra.
    + rewrite andb_true_iff, !Qltb_iff in E. rewrite orb_true_iff, Qleb_iff. lra.
    + (* 0 <= T <= T': T^2 b <= T'^2 b *)
      rewrite andb_true_iff, !Qltb_iff in E. rewrite andb_true_iff, !Qltb_iff.
      assert (Hsq : (1 - w) * (1 - w) <= (1 - w') * (1 - w')) by (apply sq_mono; lra).
      pose proof (mul_le_l b _ _ (Qlt_le_weak _ _ Eb) Hsq). lra.
  - rewrite Qltb_iff in E. apply Qltb_iff. lra.
Qed.
