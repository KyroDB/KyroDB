(* Proofs for C11 over Model/Filter.v: the inverted index agrees with the store after every history,
   the compiled filter selects exactly the documents the reference semantics selects, a filtered batch
   delete removes exactly that set. *)
From Coq Require Import List NArith ZArith Bool Arith Lia Permutation Btauto.
From Kyro Require Import Model.Filter Proofs.ListFacts Proofs.FilterLemmas.
Import ListNotations.

Lemma combine_app_eq : forall {A B} (a a' : list A) (b b' : list B), length a = length b ->
  combine (a ++ a') (b ++ b') = combine a b ++ combine a' b'.
Proof.
  intros A B a. induction a as [|x a IH]; intros a' [|y b] b' H; cbn in *; try discriminate.
  - reflexivity.
  - rewrite IH by lia. reflexivity.
Qed.

Lemma flat_map_filter : forall {A B} (g : A -> list B) (P : A -> bool) l,
  flat_map g (filter P l) = flat_map (fun i => if P i then g i else []) l.
Proof.
  intros A B g P l. induction l as [|x l IH]; [reflexivity|]. cbn [filter flat_map].
  destruct (P x); cbn [flat_map app]; rewrite IH; reflexivity.
Qed.

Lemma flat_map_ext_in : forall {A B} (g h : A -> list B) l,
  (forall x, In x l -> g x = h x) -> flat_map g l = flat_map h l.
Proof.
  intros A B g h l H. induction l as [|x l IH]; [reflexivity|]. cbn [flat_map].
  rewrite (H x (or_introl eq_refl)), IH; [reflexivity|]. intros y Hy. apply H. right. exact Hy.
Qed.

Section WithParse.
Variable parse : str -> option Z.

Inductive query :=
| QAlive
| QKV (k v : str)
| QLex (k v : str)
| QNum (k : str) (z : Z)
| QNd (k : str).

Definition qmem (ix : index) (q : query) (j : nat) : bool :=
  match q with
  | QAlive => bm_mem j (alive ix)
  | QKV k v => bm_mem j (get2 str_eqb str_eqb k v (by_kv ix))
  | QLex k v => bm_mem j (get2 str_eqb str_eqb k v (by_lex ix))
  | QNum k z => bm_mem j (get2 str_eqb Z.eqb k z (by_num ix))
  | QNd k => bm_mem j (get1 str_eqb k (numdocs ix))
  end.

Definition numkey (v : str) : option Z :=
  match parse_num parse v with
  | Some n => if f64_is_nan n then None else Some (okey n)
  | None => None
  end.
Definition is_num (v : str) : bool := match parse_num parse v with Some _ => true | None => false end.
Definition numkey_is (z : Z) (v : str) : bool :=
  match numkey v with Some z' => Z.eqb z' z | None => false end.

Definition qval (q : query) (x : str) : bool :=
  match q with
  | QAlive => false
  | QKV _ v | QLex _ v => str_eqb x v
  | QNum _ z => numkey_is z x
  | QNd _ => is_num x
  end.
Definition qkey (q : query) (x : str) : bool :=
  match q with
  | QAlive => false
  | QKV k _ | QLex k _ | QNum k _ | QNd k => str_eqb x k
  end.
Definition qpair (q : query) (kv : str * str) : bool := qkey q (fst kv) && qval q (snd kv).
Definition qdoc (q : query) (m : meta) : bool :=
  match q with QAlive => true | _ => existsb (qpair q) m end.

(* MetadataInvertedIndex::insert_doc, one pair: exact and lexicographic postings always, numeric
   postings under the key of a non-NaN value, numeric documents whenever the value parses *)
Lemma insert_pair_eq : forall i ix k v,
  insert_pair parse i ix (k, v) =
  mkIndex (alive ix) (add2 str_eqb str_eqb k v i (by_kv ix)) (add2 str_eqb str_eqb k v i (by_lex ix))
          (match numkey v with Some z => add2 str_eqb Z.eqb k z i (by_num ix) | None => by_num ix end)
          (if is_num v then add1 str_eqb k i (numdocs ix) else numdocs ix).
Proof.
  intros. unfold insert_pair, numkey, is_num. cbn [fst snd].
  destruct (parse_num parse v) as [n|]; [destruct (f64_is_nan n)|]; reflexivity.
Qed.

Lemma remove_pair_eq : forall i ix k v,
  remove_pair parse i ix (k, v) =
  mkIndex (alive ix) (rem2 str_eqb str_eqb k v i (by_kv ix)) (rem2 str_eqb str_eqb k v i (by_lex ix))
          (match numkey v with Some z => rem2 str_eqb Z.eqb k z i (by_num ix) | None => by_num ix end)
          (if is_num v then rem1 str_eqb k i (numdocs ix) else numdocs ix).
Proof.
  intros. unfold remove_pair, numkey, is_num. cbn [fst snd].
  destruct (parse_num parse v) as [n|]; [destruct (f64_is_nan n)|]; reflexivity.
Qed.

Lemma qmem_insert_pair : forall i ix kv q j,
  qmem (insert_pair parse i ix kv) q j = qmem ix q j || (qpair q kv && (i =? j)).
Proof.
  intros i ix [k v] q j. rewrite insert_pair_eq. unfold qpair. cbn [fst snd].
  destruct q as [|k' v'|k' v'|k' z|k']; cbn [qmem qkey qval alive by_kv by_lex by_num numdocs andb].
  - symmetry. apply orb_false_r.
  - apply (mem_get2_add2 _ _ str_eqb_spec str_eqb_spec).
  - apply (mem_get2_add2 _ _ str_eqb_spec str_eqb_spec).
  - unfold numkey_is. destruct (numkey v) as [z'|]; [apply (mem_get2_add2 _ _ str_eqb_spec Z.eqb_spec)|].
    rewrite andb_false_r. symmetry. apply orb_false_r.
  - destruct (is_num v); [rewrite (mem_get1_add1 _ str_eqb_spec), andb_true_r; reflexivity|].
    rewrite andb_false_r. symmetry. apply orb_false_r.
Qed.

Lemma qmem_remove_pair : forall i ix kv q j,
  qmem (remove_pair parse i ix kv) q j = qmem ix q j && negb (qpair q kv && (i =? j)).
Proof.
  intros i ix [k v] q j. rewrite remove_pair_eq. unfold qpair. cbn [fst snd].
  destruct q as [|k' v'|k' v'|k' z|k']; cbn [qmem qkey qval alive by_kv by_lex by_num numdocs andb negb].
  - symmetry. apply andb_true_r.
  - apply (mem_get2_rem2 _ _ str_eqb_spec str_eqb_spec).
  - apply (mem_get2_rem2 _ _ str_eqb_spec str_eqb_spec).
  - unfold numkey_is. destruct (numkey v) as [z'|]; [apply (mem_get2_rem2 _ _ str_eqb_spec Z.eqb_spec)|].
    rewrite andb_false_r. symmetry. apply andb_true_r.
  - destruct (is_num v); [rewrite (mem_get1_rem1 _ str_eqb_spec), andb_true_r; reflexivity|].
    rewrite andb_false_r. symmetry. apply andb_true_r.
Qed.

Lemma qmem_fold_insert : forall i m ix q j,
  qmem (fold_left (insert_pair parse i) m ix) q j = qmem ix q j || (existsb (qpair q) m && (i =? j)).
Proof.
  intros i m. induction m as [|kv m IH]; intros ix q j; cbn [fold_left existsb].
  - cbn [andb]. rewrite orb_false_r. reflexivity.
  - rewrite IH, qmem_insert_pair. btauto.
Qed.

Lemma qmem_fold_remove : forall i m ix q j,
  qmem (fold_left (remove_pair parse i) m ix) q j = qmem ix q j && negb (existsb (qpair q) m && (i =? j)).
Proof.
  intros i m. induction m as [|kv m IH]; intros ix q j; cbn [fold_left existsb].
  - cbn [andb negb]. rewrite andb_true_r. reflexivity.
  - rewrite IH, qmem_remove_pair. btauto.
Qed.

Lemma existsb_qpair_alive : forall m, existsb (qpair QAlive) m = false.
Proof. induction m as [|kv m IH]; [reflexivity|]. cbn [existsb]. rewrite IH. reflexivity. Qed.

Lemma qmem_insert_doc : forall ix i m q j, bm_mem i (alive ix) = false ->
  qmem (insert_doc parse ix i m) q j = qmem ix q j || ((i =? j) && qdoc q m).
Proof.
  intros ix i m q j H. unfold insert_doc. rewrite H. rewrite qmem_fold_insert.
  destruct q; cbn [qmem alive by_kv by_lex by_num numdocs qdoc];
    rewrite ?bm_mem_insert, ?existsb_qpair_alive; btauto.
Qed.

Lemma qmem_remove_doc : forall ix i m q j,
  qmem (remove_doc parse ix i m) q j = qmem ix q j && negb ((i =? j) && qdoc q m).
Proof.
  intros ix i m q j. unfold remove_doc. rewrite qmem_fold_remove.
  destruct q; cbn [qmem alive by_kv by_lex by_num numdocs qdoc];
    rewrite ?bm_mem_remove, ?existsb_qpair_alive; btauto.
Qed.

Definition live_at (j : nat) (sl : list slot) : bool := is_live_slot (slot_at j sl).
Definition Sem (sl : list slot) (q : query) (j : nat) : bool := live_at j sl && qdoc q (meta_at j sl).
(* every lookup of the index agrees with the store *)
Definition Inv (sl : list slot) (ix : index) : Prop := forall q j, qmem ix q j = Sem sl q j.

Lemma slot_at_app_l : forall j sl x, j < length sl -> slot_at j (sl ++ x) = slot_at j sl.
Proof. intros. unfold slot_at. apply app_nth1. assumption. Qed.
Lemma slot_at_app_last : forall sl x, slot_at (length sl) (sl ++ [x]) = x.
Proof. intros. unfold slot_at. apply nth_middle. Qed.
Lemma slot_at_beyond : forall j sl, length sl <= j -> slot_at j sl = (None, []).
Proof. intros. unfold slot_at. apply nth_overflow. assumption. Qed.

Lemma slot_at_snoc : forall j (sl : list slot) x, slot_at j (sl ++ [x]) = if j =? length sl then x else slot_at j sl.
Proof.
  intros. destruct (Nat.eqb_spec j (length sl)) as [->|Hn]; [apply slot_at_app_last|].
  destruct (Nat.lt_ge_cases j (length sl)); [apply slot_at_app_l; assumption|].
  rewrite !slot_at_beyond; [reflexivity|lia|rewrite app_length; cbn; lia].
Qed.

Lemma length_set_nth : forall i x sl, length (set_nth i x sl) = length sl.
Proof.
  intros i x sl. revert i. induction sl as [|s r IH]; intros [|i]; cbn [set_nth length]; try reflexivity.
  rewrite IH. reflexivity.
Qed.

Lemma set_nth_app_l : forall i x sl t, i < length sl -> set_nth i x (sl ++ t) = set_nth i x sl ++ t.
Proof.
  intros i x sl. revert i. induction sl as [|s r IH]; intros [|i] t H; cbn in *; try lia; [reflexivity|].
  rewrite IH by lia. reflexivity.
Qed.

Lemma slot_at_set_nth : forall j i x sl,
  slot_at j (set_nth i x sl) = if (i =? j) && (i <? length sl) then x else slot_at j sl.
Proof.
  intros j i x sl. revert i j. induction sl as [|s r IH]; intros i j.
  - cbn [set_nth length]. destruct i; cbn; rewrite ?andb_false_r; reflexivity.
  - destruct i as [|i]; cbn [set_nth].
    + destruct j as [|j]; cbn; reflexivity.
    + destruct j as [|j]; [cbn; reflexivity|].
      unfold slot_at in *. cbn [nth length]. rewrite IH.
      change (S i =? S j) with (i =? j). change (S i <? S (length r)) with (i <? length r). reflexivity.
Qed.

Lemma live_at_beyond : forall j sl, length sl <= j -> live_at j sl = false.
Proof. intros. unfold live_at. rewrite slot_at_beyond by assumption. reflexivity. Qed.

Lemma ext_at_lt : forall i sl d, ext_at i sl = Some d -> i < length sl.
Proof.
  intros i sl d H. destruct (Nat.ltb_spec i (length sl)) as [Hlt|Hge]; [exact Hlt|].
  unfold ext_at in H. rewrite slot_at_beyond in H by assumption. discriminate.
Qed.

Lemma live_at_ext : forall j sl, live_at j sl = true <-> exists d, ext_at j sl = Some d.
Proof.
  intros. unfold live_at, ext_at, is_live_slot. destruct (fst (slot_at j sl)) as [d|].
  - split; [intros _; exists d; reflexivity|reflexivity].
  - split; [discriminate|intros [d H]; discriminate].
Qed.

(* every change the backend makes to its store (append a slot, tombstone one, replace one's metadata) changes
   one position, and Sem, WF and UL speak about single positions *)
Definition upd (sl : list slot) (p : nat) (x : slot) (sl' : list slot) : Prop :=
  forall j, slot_at j sl' = if p =? j then x else slot_at j sl.

Lemma upd_snoc : forall sl x, upd sl (length sl) x (sl ++ [x]).
Proof. intros sl x j. rewrite slot_at_snoc, (Nat.eqb_sym (length sl)). reflexivity. Qed.

Lemma upd_tombstone : forall o sl, upd sl o (None, []) (tombstone o sl).
Proof.
  intros o sl j. unfold tombstone. rewrite slot_at_set_nth. destruct (Nat.eqb_spec o j) as [->|]; [|reflexivity].
  destruct (Nat.ltb_spec j (length sl)); [reflexivity|]. apply slot_at_beyond. assumption.
Qed.

Lemma upd_set : forall i x sl, i < length sl -> upd sl i x (set_nth i x sl).
Proof. intros i x sl H j. rewrite slot_at_set_nth, (proj2 (Nat.ltb_lt _ _) H), andb_true_r. reflexivity. Qed.

Lemma Sem_upd : forall [sl p x sl'], upd sl p x sl' -> forall q j,
  Sem sl' q j = if p =? j then is_live_slot x && qdoc q (snd x) else Sem sl q j.
Proof. intros sl p x sl' U q j. unfold Sem, live_at, meta_at. rewrite U. destruct (p =? j); reflexivity. Qed.

Lemma Sem_snoc : forall sl x q j,
  Sem (sl ++ [x]) q j = Sem sl q j || ((length sl =? j) && (is_live_slot x && qdoc q (snd x))).
Proof.
  intros. rewrite (Sem_upd (upd_snoc sl x)).
  destruct (Nat.eqb_spec (length sl) j) as [<-|]; [|symmetry; apply orb_false_r].
  unfold Sem. rewrite live_at_beyond by apply le_n. reflexivity.
Qed.

Lemma Sem_app_live : forall sl d m q j,
  Sem (sl ++ [(Some d, m)]) q j = Sem sl q j || ((length sl =? j) && qdoc q m).
Proof. intros. apply Sem_snoc. Qed.

Lemma Inv_insert_new : forall sl ix d m,
  Inv sl ix -> Inv (sl ++ [(Some d, m)]) (insert_doc parse ix (length sl) m).
Proof.
  intros sl ix d m H q j. rewrite qmem_insert_doc, Sem_app_live, H; [reflexivity|].
  change (qmem ix QAlive (length sl) = false). rewrite H. unfold Sem. rewrite live_at_beyond by lia. reflexivity.
Qed.

Lemma Inv_remove : forall sl ix o,
  Inv sl ix -> Inv (tombstone o sl) (remove_doc parse ix o (meta_at o sl)).
Proof.
  intros sl ix o H q j. rewrite qmem_remove_doc, (Sem_upd (upd_tombstone o sl)), H.
  destruct (Nat.eqb_spec o j) as [->|Hn]; cbn [andb negb]; [|apply andb_true_r].
  unfold Sem. destruct (live_at j sl), (qdoc q (meta_at j sl)); reflexivity.
Qed.

Lemma Inv_replace : forall sl ix i d m',
  ext_at i sl = Some d -> Inv sl ix ->
  Inv (set_nth i (Some d, m') sl) (replace_doc parse ix i (meta_at i sl) m').
Proof.
  intros sl ix i d m' He H q j. unfold replace_doc.
  rewrite qmem_insert_doc.
  - rewrite qmem_remove_doc, (Sem_upd (upd_set i _ sl (ext_at_lt _ _ _ He))), H.
    destruct (Nat.eqb_spec i j) as [->|Hn]; cbn [andb negb orb is_live_slot fst snd].
    + unfold Sem. destruct (live_at j sl), (qdoc q (meta_at j sl)), (qdoc q m'); reflexivity.
    + rewrite andb_true_r, orb_false_r. reflexivity.
  - pose proof (qmem_remove_doc ix i (meta_at i sl) QAlive i) as Hq. cbn [qmem qdoc] in Hq.
    rewrite Hq, Nat.eqb_refl. cbn. apply andb_false_r.
Qed.

Lemma indexed_app : forall sl x, indexed (sl ++ [x]) = indexed sl ++ [(length sl, x)].
Proof.
  intros. unfold indexed. rewrite app_length. cbn [length]. rewrite Nat.add_1_r, seq_S.
  rewrite combine_app_eq by apply seq_length. reflexivity.
Qed.

Lemma Inv_empty : Inv [] empty_index.
Proof.
  intros q j. unfold Sem. rewrite live_at_beyond by (cbn; lia).
  destruct q; cbn [qmem empty_index alive by_kv by_lex by_num numdocs]; reflexivity.
Qed.

Lemma Inv_rebuild : forall sl, Inv sl (rebuild_from parse sl).
Proof.
  induction sl as [|x sl IH] using rev_ind.
  - exact Inv_empty.
  - unfold rebuild_from. rewrite indexed_app, fold_left_app. cbn [fold_left].
    fold (rebuild_from parse sl). unfold rebuild_step. cbn [fst snd].
    destruct x as [[d|] m].
    + apply Inv_insert_new, IH.
    + intros q j. rewrite Sem_snoc, IH. cbn [is_live_slot fst andb]. rewrite andb_false_r. symmetry. apply orb_false_r.
Qed.

Definition wf_meta (m : meta) : Prop := NoDup (map fst m).
Definition WF (sl : list slot) : Prop := forall j, wf_meta (meta_at j sl).
(* an external id lives in at most one slot, so find_live is the code's external_to_internal map *)
Definition UL (sl : list slot) : Prop :=
  forall i j d, ext_at i sl = Some d -> ext_at j sl = Some d -> i = j.
Definition Good (s : state) : Prop := Inv (slots s) (idx s) /\ WF (slots s) /\ UL (slots s).

Lemma keys_aset : forall k v (m : meta) x, In x (map fst (aset str_eqb k v m)) -> x = k \/ In x (map fst m).
Proof.
  intros k v m x. induction m as [|[k0 v0] r IH]; cbn [aset map fst In].
  - intuition congruence.
  - destruct (str_eqb_spec k k0) as [->|Hn]; cbn [map fst In]; intuition congruence.
Qed.

Lemma wf_mset : forall k v m, wf_meta m -> wf_meta (mset k v m).
Proof.
  intros k v m. unfold wf_meta, mset. induction m as [|[k0 v0] r IH]; cbn [aset map fst]; intro H.
  - constructor; [intros []|constructor].
  - inversion H as [|? ? Hnin Hr]; subst. destruct (str_eqb_spec k k0) as [->|Hn]; cbn [map fst].
    + constructor; assumption.
    + constructor; [|apply IH, Hr]. intro Hin. apply keys_aset in Hin. destruct Hin; [congruence|contradiction].
Qed.

Lemma wf_mextend : forall l m, wf_meta m -> wf_meta (mextend m l).
Proof.
  induction l as [|kv l IH]; intros m H; cbn [mextend fold_left]; [exact H|].
  apply IH, wf_mset, H.
Qed.

Lemma wf_nil : wf_meta []. Proof. constructor. Qed.

Lemma WF_upd : forall [sl p x sl'], upd sl p x sl' -> WF sl -> wf_meta (snd x) -> WF sl'.
Proof. intros sl p x sl' U H Hx j. unfold meta_at. rewrite U. destruct (p =? j); [exact Hx|apply H]. Qed.

(* the new slot's id, if it has one, lived nowhere else *)
Lemma UL_upd : forall [sl p x sl'], upd sl p x sl' -> UL sl ->
  (forall d i, fst x = Some d -> ext_at i sl = Some d -> i = p) -> UL sl'.
Proof.
  intros sl p x sl' U H F i j d. unfold ext_at. rewrite !U.
  destruct (Nat.eqb_spec p i) as [<-|], (Nat.eqb_spec p j) as [<-|]; intros Hi Hj.
  - reflexivity.
  - symmetry. exact (F d j Hi Hj).
  - exact (F d i Hj Hi).
  - exact (H i j d Hi Hj).
Qed.

(* well-formedness is about the slots present, not their positions *)
Lemma WF_incl : forall sl sl' : list slot, incl sl' sl -> WF sl -> WF sl'.
Proof.
  intros sl sl' I H j. unfold meta_at, slot_at.
  destruct (nth_in_or_default j sl' (None, [])) as [Hin| ->]; [|apply wf_nil].
  destruct (In_nth sl _ ((None, []) : slot) (I _ Hin)) as (i & _ & E).
  specialize (H i). unfold meta_at, slot_at in H. rewrite E in H. exact H.
Qed.

Lemma find_live_some : forall d sl i, find_live d sl = Some i -> ext_at i sl = Some d.
Proof.
  intros d sl. induction sl as [|s r IH]; intros i H; cbn [find_live] in H; [discriminate|].
  destruct (ext_is d s) eqn:E.
  - injection H as <-. unfold ext_at, slot_at. cbn [nth]. unfold ext_is in E.
    destruct (fst s) as [e|]; [|discriminate]. apply N.eqb_eq in E. congruence.
  - destruct (find_live d r) as [i'|] eqn:F; [|discriminate]. injection H as <-.
    unfold ext_at, slot_at in *. cbn [nth]. apply IH. reflexivity.
Qed.

Lemma find_live_none : forall d sl, find_live d sl = None -> forall i, ext_at i sl <> Some d.
Proof.
  intros d sl. induction sl as [|s r IH]; intros H i.
  - unfold ext_at. rewrite slot_at_beyond by (cbn; lia). discriminate.
  - cbn [find_live] in H. destruct (ext_is d s) eqn:E; [discriminate|].
    destruct (find_live d r) eqn:F; [discriminate|]. destruct i as [|i].
    + unfold ext_at, slot_at. cbn [nth]. unfold ext_is in E. destruct (fst s) as [e|]; [|discriminate].
      intro Hc. injection Hc as ->. rewrite N.eqb_refl in E. discriminate.
    + unfold ext_at, slot_at in *. cbn [nth]. apply IH. reflexivity.
Qed.

Lemma find_live_iff : forall d sl i, UL sl -> (find_live d sl = Some i <-> ext_at i sl = Some d).
Proof.
  intros d sl i U. split; [apply find_live_some|]. intro H.
  destruct (find_live d sl) as [o|] eqn:F.
  - f_equal. apply (U o i d); [apply find_live_some, F|exact H].
  - exfalso. exact (find_live_none _ _ F i H).
Qed.


Lemma in_flat_map_slots : forall {B} (g : slot -> list B) (sl : list slot) y, g (None, []) = [] ->
  (In y (flat_map g sl) <-> exists j, In y (g (slot_at j sl))).
Proof.
  intros B g sl y Hn. rewrite in_flat_map. split.
  - intros (s & Hs & Hy). destruct (In_nth sl s ((None, []) : slot) Hs) as (j & _ & E).
    exists j. unfold slot_at. rewrite E. exact Hy.
  - intros (j & Hy). exists (slot_at j sl). split; [|exact Hy].
    destruct (Nat.lt_ge_cases j (length sl)) as [L|L]; [apply nth_In, L|].
    rewrite slot_at_beyond, Hn in Hy by exact L. contradiction.
Qed.

Lemma In_scan : forall sl p d,
  In d (scan sl p) <-> exists j, ext_at j sl = Some d /\ p (meta_at j sl) = true.
Proof.
  intros sl p d. unfold scan, ext_at, meta_at. rewrite in_flat_map_slots by reflexivity.
  split; intros (j & H); exists j; destruct (fst (slot_at j sl)), (p (snd (slot_at j sl))); cbn in *;
    intuition congruence.
Qed.

Lemma In_live_docs : forall sl d m, In (d, m) (live_docs sl) <-> exists j, slot_at j sl = (Some d, m).
Proof.
  intros sl d m. unfold live_docs. rewrite in_flat_map_slots by reflexivity.
  split; intros (j & H); exists j; destruct (slot_at j sl) as [[e|] m']; cbn in *; intuition congruence.
Qed.

Lemma scan_live_docs : forall sl p,
  scan sl p = map fst (filter (fun dm => p (snd dm)) (live_docs sl)).
Proof.
  intros sl p. induction sl as [|s r IH]; [reflexivity|].
  cbn [scan live_docs flat_map]. fold (scan r p). fold (live_docs r).
  rewrite filter_app, map_app, <- IH. f_equal.
  destruct (fst s) as [d|]; [|reflexivity]. cbn [filter snd]. destruct (p (snd s)); reflexivity.
Qed.

Lemma ext_at_cons_S : forall s r j, ext_at (S j) (s :: r) = ext_at j r.
Proof. reflexivity. Qed.
Lemma ext_at_cons_0 : forall s r, ext_at 0 (s :: r) = fst s.
Proof. reflexivity. Qed.

Lemma In_live_docs_fst : forall d sl, In d (map fst (live_docs sl)) <-> exists j, ext_at j sl = Some d.
Proof.
  intros d sl. rewrite in_map_iff. unfold ext_at. split.
  - intros ([d' m] & <- & H). apply In_live_docs in H. destruct H as [j H]. exists j. rewrite H. reflexivity.
  - intros [j H]. exists (d, meta_at j sl). split; [reflexivity|]. apply In_live_docs. exists j.
    unfold meta_at. rewrite <- H. apply surjective_pairing.
Qed.

Lemma UL_cons : forall s r,
  UL (s :: r) <-> UL r /\ forall d, fst s = Some d -> forall x, ext_at x r <> Some d.
Proof.
  intros s r. split.
  - intros U. split; [intros i j d Hi Hj; specialize (U (S i) (S j) d Hi Hj); lia|].
    intros d E x Hx. specialize (U 0 (S x) d E Hx). discriminate.
  - intros [U F] [|i] [|j] d Hi Hj; rewrite ?ext_at_cons_0, ?ext_at_cons_S in *.
    + reflexivity.
    + destruct (F d Hi j Hj).
    + destruct (F d Hj i Hi).
    + f_equal. exact (U i j d Hi Hj).
Qed.

Lemma UL_iff : forall sl, UL sl <-> NoDup (map fst (live_docs sl)).
Proof.
  induction sl as [|s r IH]; cbn [live_docs flat_map map].
  - split; [intros _; constructor|]. intros _ i j d H. unfold ext_at in H.
    rewrite slot_at_beyond in H by (cbn; lia). discriminate.
  - fold (live_docs r). rewrite map_app, UL_cons, IH. destruct (fst s) as [e|]; cbn [app map fst].
    + rewrite NoDup_cons_iff, In_live_docs_fst. split.
      * intros [N F]. split; [intros [x Hx]; exact (F e eq_refl x Hx)|exact N].
      * intros [F N]. split; [exact N|]. intros d [= <-] x Hx. apply F. exists x. exact Hx.
    + split; [intros [N _]; exact N|intros N; split; [exact N|discriminate]].
Qed.

Lemma live_docs_filter : forall sl, live_docs (filter is_live_slot sl) = live_docs sl.
Proof.
  induction sl as [|s r IH]; [reflexivity|]. cbn [filter]. unfold is_live_slot at 1.
  destruct (fst s) as [d|] eqn:E; cbn [live_docs flat_map]; fold (live_docs r);
    fold (live_docs (filter is_live_slot r)); rewrite ?E, IH; reflexivity.
Qed.

Lemma UL_tombstone : forall o sl, UL sl -> UL (tombstone o sl).
Proof. intros o sl U. apply (UL_upd (upd_tombstone o sl) U). discriminate. Qed.

Lemma WF_tombstone : forall o sl, WF sl -> WF (tombstone o sl).
Proof. intros o sl H. apply (WF_upd (upd_tombstone o sl) H), wf_nil. Qed.

Lemma UL_app_fresh : forall sl d m, UL sl -> (forall i, ext_at i sl <> Some d) -> UL (sl ++ [(Some d, m)]).
Proof.
  intros sl d m U Hfresh. apply (UL_upd (upd_snoc sl _) U).
  intros d' i [= <-] Hi. destruct (Hfresh i Hi).
Qed.

Lemma Good_mk : forall sl ix c, Inv sl ix -> WF sl -> UL sl -> Good (mkState sl ix c).
Proof. intros. repeat split; assumption. Qed.

Lemma WF_filter_live : forall sl, WF sl -> WF (filter is_live_slot sl).
Proof.
  intros sl. apply WF_incl. intros x Hx. apply filter_In in Hx. apply Hx.
Qed.

Lemma Good_compact : forall s, Good s -> Good (compact parse s).
Proof.
  intros s [HI [HW HU]]. unfold compact. destruct (forallb is_live_slot (slots s)).
  - repeat split; assumption.
  - apply Good_mk; [apply Inv_rebuild|apply WF_filter_live, HW|].
    apply UL_iff. rewrite live_docs_filter. apply UL_iff, HU.
Qed.

Lemma slot_insert_perm : forall x l, Permutation (slot_insert x l) (x :: l).
Proof.
  intros x l. induction l as [|y r IH]; cbn [slot_insert]; [apply Permutation_refl|].
  destruct (N.leb (slot_key x) (slot_key y)); [apply Permutation_refl|].
  eapply Permutation_trans; [apply perm_skip, IH|apply perm_swap].
Qed.

Lemma sort_slots_perm : forall l, Permutation (sort_slots l) l.
Proof.
  induction l as [|x l IH]; cbn [sort_slots fold_right]; [apply Permutation_refl|].
  eapply Permutation_trans; [apply slot_insert_perm|apply perm_skip, IH].
Qed.

Lemma Good_recover : forall s, Good s -> Good (recover parse s).
Proof.
  intros s [HI [HW HU]]. unfold recover. apply Good_mk; [apply Inv_rebuild| |].
  - eapply WF_incl; [|apply WF_filter_live, HW]. intros x Hx. eapply Permutation_in; [apply sort_slots_perm|exact Hx].
  - apply UL_iff. eapply Permutation_NoDup.
    + apply Permutation_sym, Permutation_map, Permutation_flat_map, sort_slots_perm.
    + fold (live_docs (filter is_live_slot (slots s))). rewrite live_docs_filter. apply UL_iff, HU.
Qed.

Lemma wf_meta_of_list : forall raw, wf_meta (meta_of_list raw).
Proof. intro raw. unfold meta_of_list. apply wf_mextend, wf_nil. Qed.

Lemma Good_insert : forall s d raw, Good s -> Good (fst (do_insert parse s d raw)).
Proof.
  intros s d raw G. unfold do_insert.
  set (s1 := if cap s <=? length (slots s) then compact parse s else s).
  assert (G1 : Good s1) by (unfold s1; destruct (cap s <=? length (slots s)); [apply Good_compact|]; exact G).
  clearbody s1. destruct (cap s1 <=? length (slots s1)); cbn [fst]; [exact G1|].
  destruct G1 as [HI [HW HU]].
  pose proof (Inv_insert_new _ _ d (meta_of_list raw) HI) as HI2.
  pose proof (WF_upd (upd_snoc _ (Some d, meta_of_list raw)) HW (wf_meta_of_list raw)) as HW2.
  destruct (find_live d (slots s1)) as [o|] eqn:F.
  - pose proof (find_live_some _ _ _ F) as Ho. pose proof (ext_at_lt _ _ _ Ho) as Hlt.
    apply Good_mk.
    + replace (meta_at o (slots s1)) with (meta_at o (slots s1 ++ [(Some d, meta_of_list raw)]))
        by (unfold meta_at; rewrite slot_at_app_l by exact Hlt; reflexivity).
      apply Inv_remove, HI2.
    + apply WF_tombstone, HW2.
    + (* the old holder of d is tombstoned first, so d is fresh when its new slot is appended *)
      unfold tombstone. rewrite set_nth_app_l by exact Hlt. fold (tombstone o (slots s1)). apply UL_app_fresh; [apply UL_tombstone, HU|].
      intros i Hi. unfold ext_at in Hi. rewrite upd_tombstone in Hi.
      destruct (Nat.eqb_spec o i) as [->|Hn]; [discriminate|]. apply Hn. exact (HU _ _ _ Ho Hi).
  - apply Good_mk; [exact HI2|exact HW2|]. apply UL_app_fresh; [exact HU|apply find_live_none, F].
Qed.

Lemma Good_update : forall s d raw mg, Good s -> Good (fst (do_update parse s d raw mg)).
Proof.
  intros s d raw mg [HI [HW HU]]. unfold do_update.
  destruct (find_live d (slots s)) as [i|] eqn:F; cbn [fst]; [|repeat split; assumption].
  pose proof (find_live_some _ _ _ F) as Hi. rewrite Hi. pose proof (fun x => upd_set i x _ (ext_at_lt _ _ _ Hi)) as U.
  apply Good_mk.
  - apply Inv_replace; assumption.
  - apply (WF_upd (U _) HW). destruct mg; [apply wf_mextend, HW|apply wf_meta_of_list].
  - apply (UL_upd (U _) HU). intros d' a [= <-] Ha. exact (HU _ _ _ Ha Hi).
Qed.

Lemma Good_delete : forall s d, Good s -> Good (fst (do_delete parse s d)).
Proof.
  intros s d [HI [HW HU]]. unfold do_delete.
  destruct (find_live d (slots s)) as [i|] eqn:F; cbn [fst]; [|repeat split; assumption].
  destruct (ext_at i (slots s)); cbn [fst]; [|repeat split; assumption].
  apply Good_mk; [apply Inv_remove, HI|apply WF_tombstone, HW|apply UL_tombstone, HU].
Qed.

(* batch_delete: the store pass and the posting pass commute into one interleaved pass *)
Definition rm (ix : index) (e : nat * meta) : index := remove_doc parse ix (fst e) (snd e).
Definition bd_both (acc : list slot * index) (e : N * nat * meta) : list slot * index :=
  match e with
  | (d, i, old) =>
      match ext_at i (fst acc) with
      | Some d' => if N.eqb d' d then (tombstone i (fst acc), remove_doc parse (snd acc) i old) else acc
      | None => acc
      end
  end.

Lemma bd_split : forall deletes sl rem ix,
  fold_left bd_both deletes (sl, fold_left rm rem ix)
  = (fst (fold_left bd_store_step deletes (sl, rem)),
     fold_left rm (snd (fold_left bd_store_step deletes (sl, rem))) ix).
Proof.
  induction deletes as [|[[d i] old] deletes IH]; intros sl rem ix; cbn [fold_left]; [reflexivity|].
  unfold bd_both at 2, bd_store_step at 2 4. cbn [fst snd].
  destruct (ext_at i sl) as [d'|]; [|apply IH]. destruct (N.eqb d' d); [|apply IH].
  rewrite <- IH. rewrite fold_left_app. reflexivity.
Qed.

(* a collected entry still describes its slot, or the slot has been cleared since (the id was listed twice) *)
Definition pend_ok (cur : list slot) (e : N * nat * meta) : Prop :=
  match e with
  | (d, i, old) => (ext_at i cur = Some d /\ meta_at i cur = old) \/ slot_at i cur = (None, [])
  end.

Lemma pend_ok_tombstone : forall cur o e, pend_ok cur e -> pend_ok (tombstone o cur) e.
Proof.
  intros cur o [[d i] old] H. unfold pend_ok, ext_at, meta_at in *.
  rewrite !(upd_tombstone o cur i). destruct (o =? i); [right; reflexivity|exact H].
Qed.

Definition hit (deletes : list (N * nat * meta)) (j : nat) : bool :=
  existsb (fun e => snd (fst e) =? j) deletes.

(* one collected delete tombstones its slot or finds it cleared *)
Lemma bd_both_step : forall sl ix d i old sl' ix', bd_both (sl, ix) (d, i, old) = (sl', ix') ->
  Inv sl ix -> WF sl -> UL sl -> pend_ok sl (d, i, old) ->
  Inv sl' ix' /\ WF sl' /\ UL sl' /\ (forall e, pend_ok sl e -> pend_ok sl' e) /\ upd sl i (None, []) sl'.
Proof.
  intros sl ix d i old sl' ix' Eb HI HW HU Hp. unfold bd_both in Eb. cbn [fst snd] in Eb.
  destruct (ext_at i sl) as [d'|] eqn:E; [destruct (N.eqb_spec d' d) as [->|Hn]|]; injection Eb as <- <-.
  2, 3: repeat split; auto; intros j; destruct (Nat.eqb_spec i j) as [<-|_]; [|reflexivity];
    destruct Hp as [[He _]|Hs]; [congruence|exact Hs].
  destruct Hp as [[_ <-]|Hs]; [|unfold ext_at in E; rewrite Hs in E; discriminate].
  split; [apply Inv_remove, HI|]. split; [apply WF_tombstone, HW|]. split; [apply UL_tombstone, HU|].
  split; [intros e; apply pend_ok_tombstone|apply upd_tombstone].
Qed.

Lemma bd_both_ok : forall deletes sl ix,
  Inv sl ix -> WF sl -> UL sl -> Forall (pend_ok sl) deletes ->
  Inv (fst (fold_left bd_both deletes (sl, ix))) (snd (fold_left bd_both deletes (sl, ix)))
  /\ WF (fst (fold_left bd_both deletes (sl, ix))) /\ UL (fst (fold_left bd_both deletes (sl, ix)))
  /\ forall j, slot_at j (fst (fold_left bd_both deletes (sl, ix)))
               = if hit deletes j then (None, []) else slot_at j sl.
Proof.
  induction deletes as [|[[d i] old] deletes IH]; intros sl ix HI HW HU HP; cbn [fold_left]; [cbn [fst snd]; auto|].
  inversion HP as [|? ? Hp HP']; subst. destruct (bd_both (sl, ix) (d, i, old)) as [sl' ix'] eqn:Eb.
  destruct (bd_both_step _ _ _ _ _ _ _ Eb HI HW HU Hp) as (A & B & C & P & S).
  destruct (IH sl' ix' A B C (Forall_impl _ P HP')) as (A' & B' & C' & S').
  repeat split; try assumption. intros j. rewrite S', S. unfold hit. cbn [existsb fst snd].
  destruct (i =? j), (existsb _ deletes); reflexivity.
Qed.

Lemma bd_collect_pend : forall sl ids, Forall (pend_ok sl) (bd_collect sl ids).
Proof.
  intros sl ids. apply Forall_forall. intros e He. unfold bd_collect in He.
  apply in_flat_map in He. destruct He as [d [_ He]].
  destruct (find_live d sl) as [i|] eqn:F; [|destruct He].
  destruct (ext_at i sl) eqn:E; [|destruct He]. destruct He as [<-|[]].
  left. split; [apply find_live_some, F|reflexivity].
Qed.

Lemma batch_delete_as_both : forall s ids,
  fst (do_batch_delete parse s ids)
  = mkState (fst (fold_left bd_both (bd_collect (slots s) ids) (slots s, idx s)))
            (snd (fold_left bd_both (bd_collect (slots s) ids) (slots s, idx s))) (cap s).
Proof.
  intros s ids. unfold do_batch_delete. cbn [fst].
  pose proof (bd_split (bd_collect (slots s) ids) (slots s) [] (idx s)) as H. cbn [fold_left] in H.
  rewrite H. cbn [fst snd]. reflexivity.
Qed.

Lemma Good_batch_delete : forall s ids, Good s -> Good (fst (do_batch_delete parse s ids)).
Proof.
  intros s ids [HI [HW HU]]. rewrite batch_delete_as_both.
  destruct (bd_both_ok (bd_collect (slots s) ids) (slots s) (idx s) HI HW HU (bd_collect_pend _ _))
    as (A & B & C & _).
  apply Good_mk; assumption.
Qed.

Theorem step_good : forall s o, Good s -> Good (fst (step parse s o)).
Proof.
  intros s o G. destruct o; cbn [step fst].
  - apply Good_insert, G.
  - apply Good_update, G.
  - apply Good_delete, G.
  - apply Good_batch_delete, G.
  - unfold do_batch_delete_filter. apply Good_batch_delete, G.
  - apply Good_compact, G.
  - apply Good_recover, G.
Qed.

Lemma init_good : forall c, Good (init c).
Proof.
  intro c. unfold init. apply Good_mk.
  - exact Inv_empty.
  - intro j. unfold meta_at. rewrite slot_at_beyond by (cbn; lia). apply wf_nil.
  - intros i j d H. unfold ext_at in H. rewrite slot_at_beyond in H by (cbn; lia). discriminate.
Qed.

Lemma run_fst : forall ops s acc, fst (fold_left (fun a o => let r := step parse (fst a) o in (fst r, snd a ++ [snd r])) ops (s, acc))
  = run_state parse s ops.
Proof.
  induction ops as [|o ops IH]; intros s acc; cbn [fold_left run_state]; [reflexivity|].
  cbn [fst snd]. apply IH.
Qed.

(* states reachable by any history from an empty backend of any capacity *)
Definition reachable (s : state) : Prop := exists c ops, s = run_state parse (init c) ops.

Lemma reachable_good : forall s, reachable s -> Good s.
Proof.
  intros s [c [ops ->]]. unfold run_state. apply fold_left_inv; [intros; apply step_good; assumption|apply init_good].
Qed.


Section FilterInd.
  Variable P : mfilter -> Prop.
  Hypothesis HNone : P FNone.
  Hypothesis HExact : forall k v, P (FExact k v).
  Hypothesis HRange : forall k b, P (FRange k b).
  Hypothesis HIn : forall k vs, P (FIn k vs).
  Hypothesis HAnd : forall fs, Forall P fs -> P (FAnd fs).
  Hypothesis HOr : forall fs, Forall P fs -> P (FOr fs).
  Hypothesis HNot0 : P (FNot None).
  Hypothesis HNot1 : forall g, P g -> P (FNot (Some g)).
  Fixpoint mfilter_ind' (f : mfilter) : P f :=
    match f with
    | FNone => HNone
    | FExact k v => HExact k v
    | FRange k b => HRange k b
    | FIn k vs => HIn k vs
    | FAnd fs => HAnd fs ((fix go (l : list mfilter) : Forall P l :=
                             match l with
                             | [] => Forall_nil P
                             | x :: r => Forall_cons x (mfilter_ind' x) (go r)
                             end) fs)
    | FOr fs => HOr fs ((fix go (l : list mfilter) : Forall P l :=
                           match l with
                           | [] => Forall_nil P
                           | x :: r => Forall_cons x (mfilter_ind' x) (go r)
                           end) fs)
    | FNot None => HNot0
    | FNot (Some g) => HNot1 g (mfilter_ind' g)
    end.
End FilterInd.

Lemma existsb_key_absent : forall k (g : str -> bool) (m : meta), ~ In k (map fst m) ->
  existsb (fun kv => str_eqb (fst kv) k && g (snd kv)) m = false.
Proof.
  intros k g m. induction m as [|[k0 v0] r IH]; intro H; [reflexivity|].
  cbn [existsb fst snd map] in *. destruct (str_eqb_spec k0 k) as [->|Hn].
  - exfalso. apply H. left. reflexivity.
  - cbn [andb orb]. apply IH. intro Hin. apply H. right. exact Hin.
Qed.

Lemma wf_existsb_mget : forall k (g : str -> bool) (m : meta), wf_meta m ->
  existsb (fun kv => str_eqb (fst kv) k && g (snd kv)) m
  = match mget k m with Some v => g v | None => false end.
Proof.
  intros k g m. unfold wf_meta, mget. induction m as [|[k0 v0] r IH]; intro H; [reflexivity|].
  cbn [existsb fst snd map aget] in *. inversion H as [|? ? Hnin Hr]; subst.
  rewrite (str_eqb_sym k k0). destruct (str_eqb_spec k0 k) as [->|Hn]; cbn [andb orb].
  - rewrite existsb_key_absent by assumption. apply orb_false_r.
  - apply IH, Hr.
Qed.

Lemma parse_num_range : forall x n, parse_num parse x = Some n -> (0 <= n < two64)%Z.
Proof.
  intros x n H. unfold parse_num in H. destruct (parse x); [|discriminate]. injection H as <-.
  apply f64_norm_range.
Qed.

Definition qk (q : query) : str :=
  match q with QAlive => [] | QKV k _ | QLex k _ | QNum k _ | QNd k => k end.
Definition cmp_lex (bd : bound) (x : str) : bool :=
  match bd with
  | Gte v => str_leb v x
  | Lte v => str_leb x v
  | Gt v => str_ltb v x
  | Lt v => str_ltb x v
  end.

Definition cmp_num (bd : bound) (x y : Z) : bool :=
  match bd with
  | Gte _ => f64_ge x y
  | Lte _ => f64_le x y
  | Gt _ => f64_gt x y
  | Lt _ => f64_lt x y
  end.

Lemma fold_none_and : forall c rest, fold_left (and_step c) rest None = None.
Proof. intros c rest. induction rest as [|g r IH]; [reflexivity|exact IH]. Qed.
Lemma fold_none_or : forall c rest, fold_left (or_step c) rest None = None.
Proof. intros c rest. induction rest as [|g r IH]; [reflexivity|exact IH]. Qed.

Lemma fold_in_mem : forall ix k vs acc j,
  bm_mem j (fold_left (fun acc v => bm_or acc (bitmap_for_exact ix k v)) vs acc)
  = bm_mem j acc || existsb (fun v => bm_mem j (bitmap_for_exact ix k v)) vs.
Proof.
  intros ix k vs. induction vs as [|v vs IH]; intros acc j; cbn [fold_left existsb].
  - rewrite orb_false_r. reflexivity.
  - rewrite IH, bm_mem_or. rewrite orb_assoc. reflexivity.
Qed.

Lemma Sem_mget : forall sl q j, WF sl ->
  Sem sl q j = live_at j sl &&
    match q with
    | QAlive => true
    | _ => match mget (qk q) (meta_at j sl) with Some x => qval q x | None => false end
    end.
Proof.
  intros sl q j HW. unfold Sem. f_equal.
  destruct q; cbn [qdoc qk]; [reflexivity|..]; apply wf_existsb_mget, HW.
Qed.

Section Live.
  Variables (sl : list slot) (ix : index) (j : nat).
  Hypothesis HI : Inv sl ix.
  Hypothesis HW : WF sl.
  Hypothesis HL : live_at j sl = true.

  Lemma look : forall q, qmem ix q j =
    match q with
    | QAlive => true
    | _ => match mget (qk q) (meta_at j sl) with Some x => qval q x | None => false end
    end.
  Proof. intros q. rewrite HI, (Sem_mget _ _ _ HW), HL. reflexivity. Qed.

  Lemma look_alive : bm_mem j (alive ix) = true.
  Proof. pose proof (HI QAlive j) as H. cbn [qmem] in H. rewrite H. unfold Sem. rewrite HL. reflexivity. Qed.

  Lemma lex_union : forall k (p : str -> bool),
    bm_mem j (union_where str_eqb p (getm str_eqb k (by_lex ix)))
    = match mget k (meta_at j sl) with Some x => p x | None => false end.
  Proof.
    intros k p. apply (mem_union_where_single str_eqb str_eqb_spec). intro v. exact (look (QLex k v)).
  Qed.

  Lemma kv_union_all : forall k,
    bm_mem j (union_where str_eqb (fun _ => true) (getm str_eqb k (by_kv ix)))
    = match mget k (meta_at j sl) with Some _ => true | None => false end.
  Proof.
    intros k. apply (mem_union_where_single str_eqb str_eqb_spec). intro v. exact (look (QKV k v)).
  Qed.

  Lemma num_union : forall k (p : Z -> bool),
    bm_mem j (union_where Z.eqb p (getm str_eqb k (by_num ix)))
    = match mget k (meta_at j sl) with
      | Some x => match parse_num parse x with
                  | Some xn => negb (f64_is_nan xn) && p (okey xn)
                  | None => false
                  end
      | None => false
      end.
  Proof.
    intros k p.
    rewrite (mem_union_where_single Z.eqb Z.eqb_spec j p _
               (match mget k (meta_at j sl) with Some x => numkey x | None => None end)).
    - destruct (mget k (meta_at j sl)) as [x|]; [|reflexivity]. unfold numkey.
      destruct (parse_num parse x) as [xn|]; [destruct (f64_is_nan xn)|]; reflexivity.
    - intro z. pose proof (look (QNum k z)) as H. cbn [qmem qk qval] in H. unfold get2 in H. rewrite H.
      unfold numkey_is. destruct (mget k (meta_at j sl)); reflexivity.
  Qed.

  Lemma range_lex_mem : forall k bd,
    bm_mem j (bitmap_for_range_lex ix k bd)
    = match mget k (meta_at j sl) with Some x => cmp_lex bd x | None => false end.
  Proof. intros k bd. unfold bitmap_for_range_lex. destruct bd; rewrite lex_union; reflexivity. Qed.

  (* NaN on either side never matches: no posting for a NaN value, an empty bitmap for a NaN bound *)
  Lemma range_num_mem : forall k bd bn, (0 <= bn < two64)%Z ->
    bm_mem j (bitmap_for_range_numeric ix k bd bn)
    = match mget k (meta_at j sl) with
      | Some x => match parse_num parse x with Some xn => cmp_num bd xn bn | None => false end
      | None => false
      end.
  Proof.
    intros k bd bn Hbn. unfold bitmap_for_range_numeric, cmp_num.
    pose proof (num_union k) as U.
    destruct (mget k (meta_at j sl)) as [x|]; [|destruct (f64_is_nan bn); [reflexivity|destruct bd; apply U]].
    destruct (parse_num parse x) as [xn|] eqn:Px; [|destruct (f64_is_nan bn); [reflexivity|destruct bd; apply U]].
    pose proof (parse_num_range _ _ Px) as Hxn.
    destruct (f64_is_nan bn) eqn:Nb; [|destruct (f64_is_nan xn) eqn:Nx].
    - rewrite bm_mem_nil. destruct (f64_cmp_nan xn bn (or_intror Nb)) as (A & B & C & D).
      destruct bd; symmetry; assumption.
    - destruct (f64_cmp_nan xn bn (or_introl Nx)) as (A & B & C & D). destruct bd; rewrite U; symmetry; assumption.
    - destruct (okey_order bn xn Hbn Hxn Nb Nx) as (Le1 & Lt1 & _).
      destruct (okey_order xn bn Hxn Hbn Nx Nb) as (Le2 & Lt2 & _). destruct bd; rewrite U; assumption.
  Qed.

  Definition sound_at (f : mfilter) : Prop :=
    forall b, compile parse ix f = Some b -> bm_mem j b = matches parse f (meta_at j sl).

  Lemma fold_and_sound : forall rest, Forall sound_at rest -> forall a b,
    fold_left (and_step (compile parse ix)) rest (Some a) = Some b ->
    bm_mem j b = bm_mem j a && forallb (fun g => matches parse g (meta_at j sl)) rest.
  Proof.
    intros rest HF. induction HF as [|g r Hg HF IH]; intros a b H; cbn [fold_left forallb] in *.
    - injection H as <-. rewrite andb_true_r. reflexivity.
    - unfold and_step at 2 in H. destruct (compile parse ix g) as [bg|] eqn:E.
      + rewrite (IH _ _ H), bm_mem_and, (Hg bg E). symmetry. apply andb_assoc.
      + rewrite fold_none_and in H. discriminate.
  Qed.

  Lemma fold_or_sound : forall rest, Forall sound_at rest -> forall a b,
    fold_left (or_step (compile parse ix)) rest (Some a) = Some b ->
    bm_mem j b = bm_mem j a || existsb (fun g => matches parse g (meta_at j sl)) rest.
  Proof.
    intros rest HF. induction HF as [|g r Hg HF IH]; intros a b H; cbn [fold_left existsb] in *.
    - injection H as <-. rewrite orb_false_r. reflexivity.
    - unfold or_step at 2 in H. destruct (compile parse ix g) as [bg|] eqn:E.
      + rewrite (IH _ _ H), bm_mem_or, (Hg bg E). rewrite orb_assoc. reflexivity.
      + rewrite fold_none_or in H. discriminate.
  Qed.

  (* the lexicographic postings minus the numeric documents, plus the numeric postings: a document whose
     value parses is diverted from the string comparison to the number comparison *)
  Lemma range_sound : forall k ob, sound_at (FRange k ob).
  Proof.
    intros k ob b H. cbn [compile] in H. unfold compile_range in H.
    cbn [matches]. unfold matches_range. destruct ob as [bd|].
    - destruct (parse_num parse (bound_value (Some bd))) as [bn|] eqn:Pb; injection H as <-.
      + pose proof (look (QNd k)) as Nd. cbn [qmem qk qval] in Nd.
        assert (D : forall out, bm_mem j (match aget str_eqb k (numdocs ix) with Some nd => bm_diff out nd | None => out end)
                                = bm_mem j out && negb (bm_mem j (get1 str_eqb k (numdocs ix)))).
        { intros out. unfold get1. destruct (aget str_eqb k (numdocs ix)); [apply bm_mem_diff|].
          rewrite bm_mem_nil. cbn [negb]. rewrite andb_true_r. reflexivity. }
        rewrite bm_mem_or, D, range_lex_mem, Nd, (range_num_mem k bd bn (parse_num_range _ _ Pb)).
        destruct (mget k (meta_at j sl)) as [x|]; [|reflexivity]. unfold is_num.
        destruct (parse_num parse x) as [xn|]; cbn [negb]; rewrite ?andb_false_r, ?andb_true_r, ?orb_false_r;
          destruct bd; reflexivity.
      + rewrite range_lex_mem.
        destruct (mget k (meta_at j sl)) as [x|]; [|reflexivity].
        destruct (parse_num parse x); destruct bd; reflexivity.
    - injection H as <-. unfold bitmap_for_key_presence. rewrite kv_union_all.
      destruct (mget k (meta_at j sl)) as [x|]; [|reflexivity].
      destruct (parse_num parse x), (parse_num parse (bound_value None)); reflexivity.
  Qed.

  Lemma in_sound : forall k vs, sound_at (FIn k vs).
  Proof.
    intros k vs b H. cbn [compile] in H. injection H as <-. rewrite fold_in_mem, bm_mem_nil. cbn [orb matches].
    induction vs as [|v vs IHv]; cbn [existsb]; [destruct (mget k (meta_at j sl)); reflexivity|].
    rewrite IHv. change (bm_mem j (bitmap_for_exact ix k v)) with (qmem ix (QKV k v) j). rewrite look. cbn [qk qval].
    destruct (mget k (meta_at j sl)) as [x|]; [rewrite (str_eqb_sym x v)|]; reflexivity.
  Qed.

  Lemma and_sound : forall fs, Forall sound_at fs -> sound_at (FAnd fs).
  Proof.
    intros fs IH b H. cbn [matches]. destruct fs as [|first rest]; [injection H as <-; exact look_alive|].
    cbn [compile] in H. inversion IH as [|? ? Hfirst Hrest]; subst.
    destruct (compile parse ix first) as [a|] eqn:E; [|rewrite fold_none_and in H; discriminate].
    rewrite (fold_and_sound rest Hrest a b H), (Hfirst a E). reflexivity.
  Qed.

  Lemma or_sound : forall fs, Forall sound_at fs -> sound_at (FOr fs).
  Proof.
    intros fs IH b H. destruct fs as [|first rest]; [injection H as <-; reflexivity|].
    cbn [compile] in H. rewrite (fold_or_sound (first :: rest) IH [] b H), bm_mem_nil. reflexivity.
  Qed.

  Theorem compile_sound : forall f, sound_at f.
  Proof.
    induction f as [|k v|k ob|k vs|fs IH|fs IH| |g IH] using mfilter_ind'.
    - intros b H. injection H as <-. exact look_alive.
    - intros b H. injection H as <-. exact (look (QKV k v)).
    - apply range_sound.
    - apply in_sound.
    - apply and_sound, IH.
    - apply or_sound, IH.
    - intros b H. discriminate.
    - intros b H. cbn [compile] in H. destruct (compile parse ix g) as [bg|] eqn:E; [|discriminate].
      injection H as <-. rewrite bm_mem_diff, look_alive, (IH bg E). reflexivity.
  Qed.
End Live.

Lemma scan_seq : forall sl p,
  scan sl p = flat_map (fun i => match ext_at i sl with
                                 | Some d => if p (meta_at i sl) then [d] else []
                                 | None => []
                                 end) (seq 0 (length sl)).
Proof.
  intros sl p. induction sl as [|x sl IH] using rev_ind; [reflexivity|].
  assert (Happ : scan (sl ++ [x]) p = scan sl p ++ scan [x] p) by apply flat_map_app.
  rewrite Happ, IH.
  rewrite app_length. cbn [length]. rewrite Nat.add_1_r, seq_S, flat_map_app. cbn [plus]. f_equal.
  - apply flat_map_ext_in. intros i Hi. apply in_seq in Hi. unfold ext_at, meta_at.
    rewrite slot_at_app_l by lia. reflexivity.
  - cbn [flat_map scan]. unfold ext_at, meta_at. rewrite slot_at_app_last. reflexivity.
Qed.

Theorem ids_for_filter_eq_scan : forall s f, Good s ->
  ids_for_filter parse s f = scan (slots s) (matches parse f).
Proof.
  intros s f [HI [HW HU]]. unfold ids_for_filter.
  destruct (compile parse (idx s) f) as [b|] eqn:E; [|reflexivity].
  set (b' := bm_and b (alive (idx s))).
  assert (Hlt : forall i, bm_mem i b' = true -> i < length (slots s)).
  { intros i Hi. unfold b' in Hi. rewrite bm_mem_and in Hi. apply andb_true_iff in Hi. destruct Hi as [_ Ha].
    change (qmem (idx s) QAlive i = true) in Ha. rewrite HI in Ha. unfold Sem in Ha. apply andb_true_iff in Ha.
    destruct Ha as [Ha _]. apply live_at_ext in Ha. destruct Ha as [d Hd]. eapply ext_at_lt, Hd. }
  unfold ids_of_bitmap. fold b'. rewrite (bm_iter_seq b' _ Hlt), flat_map_filter, scan_seq.
  apply flat_map_ext. intros i.
  destruct (ext_at i (slots s)) as [d|] eqn:Ee.
  - assert (HL : live_at i (slots s) = true) by (apply live_at_ext; exists d; exact Ee).
    unfold b'. rewrite bm_mem_and, (compile_sound _ _ i HI HW HL f b E), (look_alive _ _ i HI HL).
    rewrite andb_true_r. reflexivity.
  - destruct (bm_mem i b'); reflexivity.
Qed.


Theorem ids_for_filter_exact : forall s f, Good s ->
  forall d, In d (ids_for_filter parse s f) <-> In d (scan (slots s) (matches parse f)).
Proof. intros s f G d. rewrite (ids_for_filter_eq_scan s f G). reflexivity. Qed.

Lemma scan_NoDup : forall sl p, UL sl -> NoDup (scan sl p).
Proof.
  intros sl p U. rewrite scan_live_docs. apply NoDup_map_filter, UL_iff, U.
Qed.

Theorem ids_for_filter_NoDup : forall s f, Good s -> NoDup (ids_for_filter parse s f).
Proof. intros s f G. rewrite (ids_for_filter_eq_scan s f G). apply scan_NoDup, G. Qed.

(* two indexes answer every lookup the compiler can make identically *)
Definition lookups_agree (a b : index) : Prop :=
  forall j : nat,
    bm_mem j (alive a) = bm_mem j (alive b)
    /\ (forall k v, bm_mem j (get2 str_eqb str_eqb k v (by_kv a)) = bm_mem j (get2 str_eqb str_eqb k v (by_kv b)))
    /\ (forall k v, bm_mem j (get2 str_eqb str_eqb k v (by_lex a)) = bm_mem j (get2 str_eqb str_eqb k v (by_lex b)))
    /\ (forall k z, bm_mem j (get2 str_eqb Z.eqb k z (by_num a)) = bm_mem j (get2 str_eqb Z.eqb k z (by_num b)))
    /\ (forall k, bm_mem j (get1 str_eqb k (numdocs a)) = bm_mem j (get1 str_eqb k (numdocs b))).

(* C11_index_consistent: the maintained index and rebuild_from(store) are both consistent with the store *)
Lemma Inv_agree : forall sl a b, Inv sl a -> Inv sl b -> lookups_agree a b.
Proof.
  intros sl a b A B j. assert (E : forall q, qmem a q j = qmem b q j) by (intro q; rewrite A, B; reflexivity).
  repeat split; intros; [apply (E QAlive)|apply (E (QKV k v))|apply (E (QLex k v))|apply (E (QNum k z))|apply (E (QNd k))].
Qed.

(* the postings are exactly what the store says (the invariant itself, in store terms) *)
Theorem index_postings : forall s, reachable s -> forall j,
  (bm_mem j (alive (idx s)) = live_at j (slots s))
  /\ (forall k v, bm_mem j (bitmap_for_exact (idx s) k v) = true <->
                  live_at j (slots s) = true /\ mget k (meta_at j (slots s)) = Some v).
Proof.
  intros s R j. destruct (reachable_good s R) as [HI [HW _]]. split.
  - etransitivity; [exact (HI QAlive j)|apply andb_true_r].
  - intros k v. change (bm_mem j (bitmap_for_exact (idx s) k v)) with (qmem (idx s) (QKV k v) j).
    rewrite HI, (Sem_mget _ _ _ HW), andb_true_iff. cbn [qk qval].
    destruct (mget k (meta_at j (slots s))) as [x|]; [destruct (str_eqb_spec x v)|]; intuition congruence.
Qed.

Lemma nsorted_insert_In : forall x y l, In y (nsorted_insert x l) <-> y = x \/ In y l.
Proof.
  intros x y l. induction l as [|z l IH]; cbn [nsorted_insert].
  - cbn. intuition congruence.
  - destruct (N.ltb x z); [cbn; intuition congruence|]. destruct (N.eqb_spec x z) as [->|Hn]; cbn [In].
    + intuition congruence.
    + rewrite IH. intuition congruence.
Qed.

Lemma sort_dedup_In : forall y l, In y (sort_dedup l) <-> In y l.
Proof.
  intros y l. unfold sort_dedup. induction l as [|x l IH]; cbn [fold_right]; [reflexivity|].
  rewrite nsorted_insert_In, IH. cbn. intuition congruence.
Qed.

Lemma hit_collect : forall sl ids j, UL sl ->
  (hit (bd_collect sl ids) j = true <-> exists d, In d ids /\ ext_at j sl = Some d).
Proof.
  intros sl ids j U. unfold hit. rewrite existsb_exists. split.
  - intros [e [He Hj]]. unfold bd_collect in He. apply in_flat_map in He. destruct He as [d [Hd He]].
    destruct (find_live d sl) as [i|] eqn:F; [|destruct He].
    destruct (ext_at i sl) eqn:E; [|destruct He]. destruct He as [<-|[]]. cbn [fst snd] in Hj.
    apply Nat.eqb_eq in Hj. subst i. exists d. split; [exact Hd|apply find_live_some, F].
  - intros [d [Hd He]]. exists (d, j, meta_at j sl). split.
    + unfold bd_collect. apply in_flat_map. exists d. split; [exact Hd|].
      rewrite (proj2 (find_live_iff d sl j U) He), He. left. reflexivity.
    + cbn [fst snd]. apply Nat.eqb_refl.
Qed.

Theorem batch_delete_exact : forall s ids, Good s ->
  forall d m, In (d, m) (live_docs (slots (fst (do_batch_delete parse s ids))))
              <-> In (d, m) (live_docs (slots s)) /\ ~ In d ids.
Proof.
  intros s ids [HI [HW HU]] d m. rewrite batch_delete_as_both. cbn [slots].
  rewrite !In_live_docs.
  destruct (bd_both_ok (bd_collect (slots s) ids) (slots s) (idx s) HI HW HU (bd_collect_pend _ _))
    as (_ & _ & _ & HS).
  split.
  - intros [j Hj]. rewrite HS in Hj. destruct (hit (bd_collect (slots s) ids) j) eqn:Eh; [discriminate|].
    split; [exists j; exact Hj|]. intro Hin.
    assert (hit (bd_collect (slots s) ids) j = true); [|congruence].
    apply hit_collect; [exact HU|]. exists d. split; [exact Hin|]. unfold ext_at. rewrite Hj. reflexivity.
  - intros [[j Hj] Hnin]. exists j. rewrite HS.
    destruct (hit (bd_collect (slots s) ids) j) eqn:Eh; [|exact Hj]. exfalso.
    apply hit_collect in Eh; [|exact HU]. destruct Eh as [d' [Hd' He]].
    unfold ext_at in He. rewrite Hj in He. cbn [fst] in He. congruence.
Qed.

Theorem batch_delete_filter_exact : forall s f, Good s ->
  forall d m, In (d, m) (live_docs (slots (fst (do_batch_delete_filter parse s f))))
              <-> In (d, m) (live_docs (slots s)) /\ matches parse f m = false.
Proof.
  intros s f G d m. unfold do_batch_delete_filter. rewrite (batch_delete_exact s _ G).
  rewrite sort_dedup_In, (ids_for_filter_exact s f G), In_scan.
  destruct G as [HI [HW HU]]. rewrite In_live_docs. split.
  - intros [[j Hj] Hn]. split; [exists j; exact Hj|].
    destruct (matches parse f m) eqn:Em; [|reflexivity]. exfalso. apply Hn. exists j.
    unfold ext_at, meta_at. rewrite Hj. split; [reflexivity|exact Em].
  - intros [[j Hj] Hm]. split; [exists j; exact Hj|]. intros [j' [He Hp]].
    assert (j' = j).
    { apply (HU j' j d He). unfold ext_at. rewrite Hj. reflexivity. }
    subst j'. unfold meta_at in Hp. rewrite Hj in Hp. cbn [snd] in Hp. congruence.
Qed.

Theorem filter_exact_scan : forall s f, reachable s ->
  forall d, In d (ids_for_filter parse s f) <-> In d (scan (slots s) (matches parse f)).
Proof. intros s f R. apply ids_for_filter_exact, reachable_good, R. Qed.

Theorem batch_delete_ids_step_exact : forall s ids, reachable s ->
  forall d m, In (d, m) (live_docs (slots (fst (step parse s (OBatchDelete ids)))))
              <-> In (d, m) (live_docs (slots s)) /\ ~ In d ids.
Proof. intros s ids R. cbn [step fst]. apply batch_delete_exact, reachable_good, R. Qed.

Theorem reachable_step : forall s o, reachable s -> reachable (fst (step parse s o)).
Proof.
  intros s o [c [ops ->]]. exists c, (ops ++ [o]). unfold run_state. rewrite fold_left_app. reflexivity.
Qed.

End WithParse.
