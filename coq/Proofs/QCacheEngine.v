(* Engine-level theorems over Model/QCache.v: validity of every cached entry in every sequential
   history, the searcher/writer interleaving, and what an exact-key hit means (C07). *)
From Coq Require Import QArith Qminmax Qround Qabs List NArith ZArith Bool Arith Lqa Lia Sorting.Sorted.
From Kyro Require Import Model.QCache Proofs.ListFacts Proofs.QCacheProofs Proofs.QCacheInv.
Import ListNotations.
Open Scope Q_scope.

Lemma c_get_put c id v id' : c_get (c_put c id v) id' = if N.eqb id id' then Some v else c_get c id'.
Proof. unfold c_put. cbn [c_get]. rewrite c_get_del. destruct (N.eqb id id'); reflexivity. Qed.

Lemma in_ids (e : entry) id d : In (id, d) (e_results e) -> In id (e_ids e).
Proof. intro H. unfold e_ids. apply in_map_iff. exists (id, d). auto. Qed.

Definition rle (a b : result) : Prop := snd a <= snd b.

Lemma worst_none (l : list result) : worst l = None -> l = [].
Proof. destruct l as [|[i x] l]; [reflexivity|]. cbn [worst]. destruct (worst l); discriminate. Qed.

Lemma worst_bound (l : list result) (d : Q) :
  l <> [] -> (forall a, In a l -> snd a <= d) -> exists w, worst l = Some w /\ w <= d.
Proof.
  induction l as [|[i x] l IH]; intros Hne H; [congruence|]. cbn [worst].
  assert (Hx : x <= d) by (apply (H (i, x)); left; reflexivity).
  destruct (worst l) as [w|] eqn:Ew.
  - exists (Qmax x w). split; [reflexivity|]. apply Q.max_lub; [exact Hx|].
    destruct IH as [w' [E Hw]]; [intros ->; discriminate | intros a Ha; apply H; right; exact Ha|].
    inversion E; subst. exact Hw.
  - exists x. auto.
Qed.

Lemma worst_ge (l : list result) (w : Q) (a : result) : worst l = Some w -> In a l -> snd a <= w.
Proof.
  revert w. induction l as [|[i x] l IH]; intros w Hw Ha; [inversion Ha|].
  cbn [worst] in Hw. destruct (worst l) as [w0|] eqn:E; inversion Hw; subst.
  - destruct Ha as [<-|Ha]; [apply Q.le_max_l|].
    specialize (IH w0 eq_refl Ha). pose proof (Q.le_max_r x w0). lra.
  - rewrite (worst_none l E) in Ha. destruct Ha as [<-|[]]. cbn [snd]. lra.
Qed.

(* an entry of a sorted list that is not among the first k: these are k entries, none farther than it *)
Lemma beyond_prefix (L : list result) k id d :
  StronglySorted rle L -> (1 <= k)%nat -> In (id, d) L -> ~ In id (map fst (firstn k L)) ->
  length (firstn k L) = k /\ exists w, worst (firstn k L) = Some w /\ w <= d.
Proof.
  intros HS Hk Hin Hn.
  destruct (sorted_firstn_split rle k L (id, d) HS Hin) as [H|[Hlen Hall]].
  - elim Hn. apply in_map_iff. exists (id, d). auto.
  - split; [exact Hlen|]. apply worst_bound; [|exact Hall].
    intro E. rewrite E in Hlen. cbn in Hlen. lia.
Qed.

Section EngineProofs.
  Variables pre dle dlt : vec -> vec -> Q -> bool.
  Variable isd : vec -> vec -> Q -> Prop.        (* "d is the distance the engine reports for (q, v)" *)
  Variable fresh_search : collection -> vec -> nat -> list result.
  Variable cfg : config.

  (* discharged by prefilter_sound and dist_lt_le *)
  Hypothesis H_pre : forall q x w, length q = length x -> pre q x w = false -> dle q x w = false.
  Hypothesis H_lt : forall q x w, dle q x w = false -> dlt q x w = false.
  (* the uncached search is an exact k-NN: *)
  Hypothesis O_live : forall c q k id d, In (id, d) (fresh_search c q k) ->
                        exists v, c_get c id = Some v /\ isd q v d.
  Hypothesis O_len : forall c q k, (length (fresh_search c q k) <= k)%nat.
  Hypothesis O_sorted : forall c q k, StronglySorted rle (fresh_search c q k).
  Hypothesis O_omit : forall c q k id v, (1 <= k)%nat -> c_get c id = Some v ->
                        ~ In id (map fst (fresh_search c q k)) ->
                        length (fresh_search c q k) = k /\
                        exists w, worst (fresh_search c q k) = Some w /\ dlt q v w = false.

  (* The cached entry is an answer a fresh search could give now: every listed document is live
     with its current distance (no deleted id, no pre-overwrite distance), and every live
     document that is not listed is not strictly inside the boundary (and the list is full). *)
  Definition Valid (c : collection) (e : entry) : Prop :=
    (forall id d, In (id, d) (e_results e) -> exists v, c_get c id = Some v /\ isd (e_query e) v d) /\
    (forall id v, c_get c id = Some v -> ~ In id (e_ids e) ->
        (e_kreq e <= length (e_results e))%nat /\
        exists w, worst (e_results e) = Some w /\ dlt (e_query e) v w = false) /\
    StronglySorted rle (e_results e).

  Lemma valid_fresh c scope q k :
    fresh_search c q k <> [] ->
    Valid c (new_entry scope q (fresh_search c q k) k).
  Proof.
    intro Hne.
    assert (Hk : (1 <= k)%nat).
    { pose proof (O_len c q k). destruct (fresh_search c q k); [congruence|]. cbn [length] in *. lia. }
    unfold Valid, new_entry, e_ids. cbn [e_results e_query e_kreq]. split; [|split].
    - intros id d H. apply (O_live _ _ _ _ _ H).
    - intros id v Hv Hn. destruct (O_omit c q k id v Hk Hv Hn) as [Hl Hw].
      split; [rewrite Hl; lia|exact Hw].
    - apply O_sorted.
  Qed.

  Lemma valid_insert c e id x :
    Valid c e -> ~ In id (e_ids e) -> insert_hits pre dle x e = false -> Valid (c_put c id x) e.
  Proof.
    intros [V1 [V2 V3]] Hn Hh. split; [|split; [|exact V3]].
    - intros id' d H. rewrite c_get_put. destruct (N.eqb id id') eqn:E.
      + apply N.eqb_eq in E. subst id'. exfalso. apply Hn. apply (in_ids _ _ _ H).
      + apply (V1 id' d H).
    - intros id' v Hv Hn'. rewrite c_get_put in Hv. destruct (N.eqb id id') eqn:E.
      + inversion Hv; subst v. clear Hv.
        destruct (insert_hits_false _ _ _ _ Hh) as (E1 & E2 & w & Ew & Hw).
        split; [exact E1|]. exists w. split; [exact Ew|]. apply H_lt.
        destruct Hw; [apply H_pre|]; assumption.
      + apply (V2 id' v Hv Hn').
  Qed.

  Lemma valid_delete c e id : Valid c e -> ~ In id (e_ids e) -> Valid (c_del c id) e.
  Proof.
    intros [V1 [V2 V3]] Hn. split; [|split; [|exact V3]].
    - intros id' d H. rewrite c_get_del. destruct (N.eqb id id') eqn:E.
      + apply N.eqb_eq in E. subst id'. exfalso. apply Hn. apply (in_ids _ _ _ H).
      + apply (V1 id' d H).
    - intros id' v Hv Hn'. rewrite c_get_del in Hv. destruct (N.eqb id id'); [discriminate|].
      apply (V2 id' v Hv Hn').
  Qed.

  Definition EInv (st : estate) : Prop := Entries (Valid (e_coll st)) (e_cache st).

  Lemma EInv_clear c s : EInv (mkE c (clear s)).
  Proof. split; [apply CInv_nil|intros e []]. Qed.

  Lemma prune_spec P c : forall rs s, Entries P s -> Entries P (fst (prune_noncanonical c s rs)).
  Proof.
    induction rs as [|[id d] rs IH]; intros s H; cbn [prune_noncanonical]; [exact H|].
    destruct (c_get c id); [apply IH; exact H|].
    rewrite !let_fst. cbn [fst]. apply IH. eapply Entries_impl; [|apply invalidate_doc_spec, H].
    intros e [He _]. exact He.
  Qed.

  Lemma miss_spec P c s scope q k g :
    Entries P s -> (fresh_search c q k <> [] -> P (new_entry scope q (fresh_search c q k) k)) ->
    Entries P match fresh_search c q k with
              | [] => s
              | _ => fst (store cfg s scope q (fresh_search c q k) k (Some g))
              end.
  Proof.
    intros H Hnew. destruct (fresh_search c q k) as [|r0 rs]; [exact H|].
    apply store_spec; [exact H | apply Hnew; discriminate].
  Qed.

  Lemma esearch_spec P st scope q k :
    Entries P (e_cache st) ->
    (fresh_search (e_coll st) q k <> [] -> P (new_entry scope q (fresh_search (e_coll st) q k) k)) ->
    let r := esearch fresh_search cfg st scope q k in
    e_coll (fst r) = e_coll st /\ Entries P (e_cache (fst r)) /\
    (forall c, snd r = RHit c -> snd (get_scoped cfg (e_cache st) scope q k) = Some c).
  Proof.
    intros H Hnew. cbn zeta. unfold esearch.
    pose proof (get_scoped_entries P cfg (e_cache st) scope q k H) as H1.
    destruct (get_scoped cfg (e_cache st) scope q k) as [s1 [cached|]]; cbn [fst snd] in *.
    - pose proof (prune_spec P (e_coll st) cached s1 H1) as H2.
      destruct (prune_noncanonical (e_coll st) s1 cached) as [s2 [|]]; cbn [fst] in H2;
        cbn [fst snd e_coll e_cache]; (split; [reflexivity|]).
      + split; [apply miss_spec; assumption | discriminate].
      + split; [exact H2|]. intros c Hc. inversion Hc. reflexivity.
    - cbn [fst snd e_coll e_cache]. split; [reflexivity|]. split; [apply miss_spec; assumption | discriminate].
  Qed.

  Lemma estep_EInv st o : EInv st -> EInv (fst (estep pre dle fresh_search cfg st o)).
  Proof.
    intro H. destruct o; cbn [estep].
    - destruct (esearch_spec _ st scope q k H (valid_fresh _ scope q k)) as (Ec & E & _).
      unfold EInv. rewrite Ec. exact E.
    - rewrite !let_fst. cbn [fst e_cache e_coll].
      eapply Entries_impl; [|apply invalidate_for_insert_gen_spec, invalidate_doc_spec, H].
      intros e [[HV Hn] Hh]. apply valid_insert; assumption.
    - destruct (c_get (e_coll st) id); [|exact H].
      rewrite let_fst. cbn [fst e_cache e_coll]. eapply Entries_impl; [|apply invalidate_doc_spec, H].
      intros e [HV Hn]. apply valid_delete; assumption.
    - destruct (c_get (e_coll st) id); [apply EInv_clear|exact H].
    - apply EInv_clear.
    - apply EInv_clear.
  Qed.

  Lemma erun_EInv ops : forall st, EInv st -> EInv (erun pre dle fresh_search cfg st ops).
  Proof.
    induction ops as [|o ops IH]; intros st H; cbn [erun]; [exact H|].
    apply IH. apply estep_EInv. exact H.
  Qed.

  Lemma EInv_init : EInv einit.
  Proof. split; [apply CInv_nil|intros e []]. Qed.

  Theorem entry_valid ops e :
    let st := erun pre dle fresh_search cfg einit ops in
    In e (s_entries (e_cache st)) -> Valid (e_coll st) e.
  Proof. intros st H. apply (erun_EInv ops einit EInv_init). exact H. Qed.

  Theorem hit_valid ops scope q k r st' :
    let st := erun pre dle fresh_search cfg einit ops in
    estep pre dle fresh_search cfg st (ESearch scope q k) = (st', RHit r) ->
    exists e, In e (s_entries (e_cache st)) /\ Valid (e_coll st) e /\
              e_scope e = scope /\ (k <= e_kreq e)%nat /\ r = firstn k (e_results e).
  Proof.
    intros st H. pose proof (erun_EInv ops einit EInv_init) as [HC HV]. fold st in HC, HV.
    cbn [estep] in H. destruct (esearch_spec _ st scope q k (CInv_Entries _ HC) (fun _ => I)) as (_ & _ & Hh).
    rewrite H in Hh. cbn [snd] in Hh.
    destruct (get_scoped_served cfg _ scope q k r HC (Hh r eq_refl)) as [e [He [Hsc [Hk [Hr _]]]]].
    exists e. split; [exact He|]. split; [apply HV; exact He|]. split; [exact Hsc|]. split; [exact Hk|exact Hr].
  Qed.

  (* discharged by dist_lt_mono *)
  Hypothesis H_mono : forall q v w w', dlt q v w = false -> w' <= w -> dlt q v w' = false.
  (* the reported distance is the one dlt compares: a document reported at d is not strictly
     inside any boundary w <= d *)
  Hypothesis H_isd : forall q v d w, isd q v d -> w <= d -> dlt q v w = false.

  Definition prefix_entry (e : entry) (k : nat) : entry :=
    mkEntry (e_scope e) (e_qkey e) (e_query e) k (firstn k (e_results e)).

  Lemma prefix_valid c e k :
    Valid c e -> (1 <= k)%nat -> (k <= e_kreq e)%nat -> Valid c (prefix_entry e k).
  Proof.
    intros [V1 [V2 V3]] Hk1 Hk. unfold Valid, prefix_entry, e_ids. cbn [e_results e_query e_kreq].
    set (rs := e_results e) in *.
    split; [|split; [|apply StronglySorted_firstn; exact V3]].
    - intros id d H. apply (V1 id d). apply (in_firstn _ _ _ H).
    - intros id v Hv Hn.
      destruct (in_dec N.eq_dec id (map fst rs)) as [Hin|Hout].
      + (* listed by the entry, beyond the prefix: the prefix is full and ends no farther than it *)
        apply in_map_iff in Hin. destruct Hin as [[id' d] [E Hin]]. cbn [fst] in E. subst id'.
        destruct (beyond_prefix rs k id d V3 Hk1 Hin Hn) as [Hlen [w [Ew Hw]]].
        split; [rewrite Hlen; lia|]. exists w. split; [exact Ew|].
        destruct (V1 id d Hin) as [v0 [Hv0 Hd]]. rewrite Hv in Hv0. inversion Hv0; subst v0.
        apply (H_isd _ _ _ _ Hd Hw).
      + (* not listed at all: the entry's own boundary applies, and the prefix's is no larger *)
        destruct (V2 id v Hv Hout) as [Hfull [w [Ew Hw]]].
        assert (Hlen : length (firstn k rs) = k) by (apply firstn_length_le; lia).
        split; [rewrite Hlen; lia|].
        destruct (worst_bound (firstn k rs) w) as [w' [Ew' Hw']].
        * intro E. rewrite E in Hlen. cbn in Hlen. lia.
        * intros a Ha. apply (worst_ge rs w a Ew). apply (in_firstn _ _ _ Ha).
        * exists w'. split; [exact Ew'|]. apply (H_mono _ _ _ _ Hw Hw').
  Qed.

  Theorem k_monotone ops scope q k r st' :
    let st := erun pre dle fresh_search cfg einit ops in
    (1 <= k)%nat ->
    estep pre dle fresh_search cfg st (ESearch scope q k) = (st', RHit r) ->
    exists e, In e (s_entries (e_cache st)) /\ e_scope e = scope /\ (k <= e_kreq e)%nat /\
              r = firstn k (e_results e) /\ Valid (e_coll st) e /\
              Valid (e_coll st) (prefix_entry e k) /\ e_results (prefix_entry e k) = r.
  Proof.
    intros st Hk H. destruct (hit_valid ops scope q k r st' H) as [e [He [Hv [Hs [Hkk Hr]]]]].
    exists e. repeat (split; [assumption|]). split; [apply prefix_valid; assumption|].
    cbn [prefix_entry e_results]. symmetry. exact Hr.
  Qed.

  Lemma store_skip s scope q r k g :
    s_gen s <> g -> store cfg s scope q r k (Some g) = (s, SkippedGeneration).
  Proof.
    intro H. unfold store. apply N.eqb_neq in H. rewrite H. reflexivity.
  Qed.

  Lemma store_gen s scope q r k ex : s_gen (fst (store cfg s scope q r k ex)) = s_gen s.
  Proof. destruct (store_cases cfg s scope q r k ex) as [->|(_ & E & _)]; [reflexivity|exact E]. Qed.

  Definition ph_gen (p : sphase) : option N :=
    match p with SIdle => None | SHaveGen _ _ _ g => Some g | SHaveRes _ _ _ g _ => Some g end.

  (* the generation the searcher holds is never ahead of the cache's, and strictly behind it once a bump
     followed the compute step: the store then finds another generation and is skipped *)
  Definition IInv (s : istate) : Prop :=
    (forall g, ph_gen (i_ph s) = Some g ->
       (g <= s_gen (i_cache s))%N /\ (i_bumped_since_compute s = true -> (g < s_gen (i_cache s))%N)) /\
    (forall out, In (true, out) (i_log s) -> out = SkippedGeneration).

  Lemma istep_IInv s e s' :
    IInv s -> istep pre dle fresh_search cfg s e = Some s' -> IInv s'.
  Proof.
    intros [Hg Hl] H. destruct e; cbn [istep] in H.
    - destruct (i_ph s); inversion H; subst; clear H. split; [|exact Hl].
      cbn [i_ph ph_gen i_cache i_bumped_since_compute]. intros g E. inversion E; subst.
      split; [lia|discriminate].
    - destruct (i_ph s) as [|sc q k g|] eqn:Ep; inversion H; subst; clear H. split; [|exact Hl].
      cbn [i_ph ph_gen i_cache i_bumped_since_compute]. intros g' E. inversion E; subst.
      split; [apply (Hg g' eq_refl)|discriminate].
    - destruct (i_ph s) as [| |sc q k g r] eqn:Ep; try discriminate.
      destruct (store cfg (i_cache s) sc q r k (Some g)) as [c1 out] eqn:Es.
      inversion H; subst; clear H. split; [cbn [i_ph ph_gen]; discriminate|].
      cbn [i_log]. intros out' [Hin|Hin]; [|apply Hl; exact Hin].
      inversion Hin as [[Hb Ho]]. subst out'.
      destruct (Hg g eq_refl) as [_ Hlt]. specialize (Hlt Hb).
      rewrite store_skip in Es; [inversion Es; reflexivity|]. lia.
    - inversion H; subst; clear H. split; [exact Hg|exact Hl].
    - inversion H; subst; clear H. split; [exact Hg|exact Hl].
    - inversion H; subst; clear H. split; [|exact Hl].
      cbn [i_ph i_cache i_bumped_since_compute bump s_gen]. intros g E.
      destruct (Hg g E) as [Hle Hlt]. split; [lia|]. intros _. lia.
    - destruct w; inversion H; subst; clear H; (split; [|exact Hl]);
        cbn [i_ph i_cache i_bumped_since_compute clear_remove s_gen];
        rewrite ?doc_remove_gen, ?insert_remove_gen; exact Hg.
  Qed.

  Lemma irun_IInv evs : forall s0 s,
    IInv s0 -> irun pre dle fresh_search cfg s0 evs = Some s -> IInv s.
  Proof.
    induction evs as [|e evs IH]; intros s0 s H0 H; cbn [irun] in H; [inversion H; subst; exact H0|].
    destruct (istep pre dle fresh_search cfg s0 e) as [s1|] eqn:E; [|discriminate].
    apply (IH s1); [apply (istep_IInv _ _ _ H0 E)|exact H].
  Qed.

  Lemma IInv_init : IInv iinit.
  Proof. split; [cbn; discriminate|intros out []]. Qed.
End EngineProofs.

Definition near1 (x y : Q) : Prop := - (1 # 32768) < x - y /\ x - y < 1 # 32768.

(* round-half-away stays within 1/2 of its argument, the closed end on the side of zero *)
Lemma rha_bounds (x : Q) :
  (0 <= x -> inject_Z (rha x) - (1#2) <= x /\ x < inject_Z (rha x) + (1#2)) /\
  (x < 0 -> inject_Z (rha x) - (1#2) < x /\ x <= inject_Z (rha x) + (1#2)).
Proof.
  unfold rha. destruct (Qleb_spec 0 x) as [H|H]; (split; intro H'; [|]; try lra).
  - pose proof (Qfloor_le (x + (1#2))). pose proof (Qlt_floor (x + (1#2))) as L.
    rewrite inject_Z_plus in L. change (inject_Z 1) with 1 in L. lra.
  - pose proof (Qfloor_le (- x + (1#2))). pose proof (Qlt_floor (- x + (1#2))) as L.
    rewrite inject_Z_plus in L. change (inject_Z 1) with 1 in L. rewrite inject_Z_opp. lra.
Qed.

Lemma rha_near (x y : Q) : rha x = rha y -> -1 < x - y /\ x - y < 1.
Proof.
  intro E. pose proof (rha_bounds x) as [A1 A2]. pose proof (rha_bounds y) as [B1 B2]. rewrite E in *.
  destruct (Qlt_le_dec x 0), (Qlt_le_dec y 0); lra.
Qed.

Lemma quant1_fin (x : Q) : fin_scaled1 x = true -> quant1 x = rha (x * 32768).
Proof. unfold quant1. intro H. rewrite H. reflexivity. Qed.

Lemma same_cell_near (a b : vec) :
  fin_scaled a = true -> fin_scaled b = true -> quantise a = quantise b -> Forall2 near1 a b.
Proof.
  revert b. induction a as [|x a IH]; intros [|y b] Ha Hb H; cbn [quantise map] in H; try discriminate.
  - constructor.
  - cbn [fin_scaled forallb] in Ha, Hb. apply andb_true_iff in Ha. apply andb_true_iff in Hb.
    destruct Ha as [Ha1 Ha2], Hb as [Hb1 Hb2]. inversion H as [[H1 H2]].
    constructor; [|apply IH; assumption].
    rewrite (quant1_fin _ Ha1), (quant1_fin _ Hb1) in H1.
    apply rha_near in H1. unfold near1. lra.
Qed.

Lemma run_state_served cfg ops scope q k r :
  snd (get_scoped cfg (run_state cfg empty ops) scope q k) = Some r ->
  served cfg (run_state cfg empty ops) scope q k r.
Proof. apply get_scoped_served, run_state_CInv, CInv_nil. Qed.

(* prefilter as invalidate_for_insert applies it: prefix_dims = min(32, len(insert)) *)
Definition pre_m (m : metric) : vec -> vec -> Q -> bool :=
  fun q x w => can_affect m (Nat.min prefix_dims (length x)) q x w.

Lemma invalidate_for_insert_as_gen s x m :
  invalidate_for_insert s x m = invalidate_for_insert_gen (pre_m m) (dist_le m) s x.
Proof. reflexivity. Qed.

Lemma pre_m_sound m q x w : length q = length x -> pre_m m q x w = false -> dist_le m q x w = false.
Proof. unfold pre_m. apply prefilter_sound. Qed.
