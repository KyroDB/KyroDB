(* C15 — the handlers of Model/Requests.v over the validators translated into gen/Validators_gen.v: what the
   validators accept (validate_*_sound) and what the engine accepts (cold_insert_ok_spec); one walk through all
   handlers for totality and the no-effect claims (handle_shape); then the answer to each boundary class,
   handler by handler, and the BulkSearch stream. *)
From Coq Require Import List NArith Bool Lia.
From Kyro Require Import Model.ReqBase gen.Validators_gen Model.Requests.
Import ListNotations.
Open Scope N_scope.

Lemma len_cons {A} (x : A) l : len (x :: l) = 1 + len l.
Proof. unfold len. cbn [List.length]. lia. Qed.
Lemma len_nil {A} : len (@nil A) = 0.
Proof. reflexivity. Qed.
Lemma ltb_0 n : (n <? 0) = false.
Proof. destruct n; reflexivity. Qed.
Lemma is_nil_true {A} (l : list A) : is_nil l = true <-> l = [].
Proof. destruct l; cbn; split; congruence. Qed.
Lemma is_nil_len {A} (l : list A) : is_nil l = false -> 1 <= len l.
Proof. destruct l; cbn [is_nil]; [congruence|]. intros _. rewrite len_cons. lia. Qed.
Lemma clampN_bounds x lo hi : lo <= hi -> lo <= clampN x lo hi <= hi.
Proof.
  intros H. unfold clampN. destruct (x <? lo) eqn:E1; [lia|].
  destruct (hi <? x) eqn:E2; [lia|]. apply N.ltb_ge in E1, E2. lia.
Qed.
Lemma list_min_bounds (l : list N) a b :
  Forall (fun x => a <= x <= b) l -> match list_min l with Some m => a <= m <= b | None => True end.
Proof.
  induction 1 as [|x r Hx Hr IH]; cbn [list_min]; [exact I|].
  destruct (list_min r); lia.
Qed.
Lemma filter_true {A} (l : list A) : filter (fun _ => true) l = l.
Proof. induction l; cbn; congruence. Qed.
Lemma existsb_negb_forallb {A} (p : A -> bool) l : existsb (fun x => negb (p x)) l = false <-> forallb p l = true.
Proof.
  induction l as [|x r IH]; cbn; [tauto|].
  rewrite orb_false_iff, andb_true_iff, negb_false_iff. tauto.
Qed.

(* induction principle for the nested inductive pfilter *)
Section PfilterInd.
  Variable P : pfilter -> Prop.
  Hypothesis HNone : P PNone.
  Hypothesis HExact : forall k v, P (PExact k v).
  Hypothesis HRange : forall k b, P (PRange k b).
  Hypothesis HIn : forall k vs, P (PIn k vs).
  Hypothesis HAnd : forall fs, Forall P fs -> P (PAnd fs).
  Hypothesis HOr : forall fs, Forall P fs -> P (POr fs).
  Hypothesis HNotN : P (PNot None).
  Hypothesis HNotS : forall f, P f -> P (PNot (Some f)).
  Fixpoint pfilter_rect' (f : pfilter) : P f :=
    match f with
    | PNone => HNone
    | PExact k v => HExact k v
    | PRange k b => HRange k b
    | PIn k vs => HIn k vs
    | PAnd fs => HAnd fs ((fix go (l : list pfilter) : Forall P l :=
                             match l with [] => Forall_nil P | x :: r => Forall_cons x (pfilter_rect' x) (go r) end) fs)
    | POr fs => HOr fs ((fix go (l : list pfilter) : Forall P l :=
                           match l with [] => Forall_nil P | x :: r => Forall_cons x (pfilter_rect' x) (go r) end) fs)
    | PNot None => HNotN
    | PNot (Some g) => HNotS g (pfilter_rect' g)
    end.
End PfilterInd.

Lemma sel_map_bounds (g : pfilter -> N) fs a b :
  Forall (fun f => has_type f = true -> a <= g f <= b) fs -> Forall (fun x => a <= x <= b) (sel_map g fs).
Proof.
  unfold sel_map. induction 1 as [|f r Hf Hr IH]; cbn [flat_map]; [constructor|].
  destruct (has_type f) eqn:E; cbn [app]; [constructor; auto|exact IH].
Qed.
(* every FilterType is estimated within [1, 50]: so `50 / inner_selectivity` never divides by zero, and
   `avg_selectivity * 2` and the sum stay far below 2^64 for any decodable message *)
Lemma estimate_selectivity_bounds : forall f, has_type f = true -> 1 <= estimate_selectivity f <= 50.
Proof.
  induction f using pfilter_rect'; intros HT; cbn [has_type] in HT; try discriminate;
    cbn [estimate_selectivity]; try lia.
  - repeat match goal with |- context [if ?c then _ else _] => destruct c end; lia.
  - destruct (is_nil fs); [lia|].
    pose proof (list_min_bounds (sel_map (fun g => estimate_selectivity g) fs) 1 50 (sel_map_bounds _ fs 1 50 H)) as B.
    unfold opt_default. destruct (list_min _); lia.
  - destruct (is_nil fs); [lia|]. pose proof (clampN_bounds
      (list_sum (sel_map (fun g => estimate_selectivity g) fs) / N.max (len fs) 1 * 2) 2 20). lia.
  - destruct (has_type f); [|lia].
    pose proof (clampN_bounds (50 / estimate_selectivity f) 10 50). lia.
Qed.
Lemma oversampling_bounds f : 1 <= calculate_oversampling_factor f <= 50.
Proof.
  unfold calculate_oversampling_factor. destruct (has_type f) eqn:E; [|lia].
  apply estimate_selectivity_bounds; exact E.
Qed.
(* the divisors that appear in the generated text *)
Lemma oversampling_divisors_nonzero :
  (forall fs : list pfilter, 1 <= N.max (len fs) 1) /\ (forall f, has_type f = true -> 1 <= estimate_selectivity f).
Proof. split; [intros; lia|]. intros f H. apply estimate_selectivity_bounds in H. lia. Qed.

Definition all_finite (v : list fclass) : bool := forallb fc_is_finite v.

Lemma validate_insert_sound r u :
  validate_insert_request r = VOk u ->
  MIN_DOC_ID <= ir_doc_id r /\ ir_embedding r <> [] /\ len (ir_embedding r) <= MAX_EMBEDDING_DIM
  /\ all_finite (ir_embedding r) = true.
Proof.
  unfold validate_insert_request.
  destruct (ir_doc_id r <? MIN_DOC_ID) eqn:E1; [discriminate|].
  destruct (is_nil (ir_embedding r)) eqn:E2; [discriminate|].
  destruct (MAX_EMBEDDING_DIM <? len (ir_embedding r)) eqn:E3; [discriminate|].
  destruct (existsb _ (ir_embedding r)) eqn:E4; [discriminate|]. intros _.
  apply N.ltb_ge in E1, E3. apply existsb_negb_forallb in E4.
  repeat split; auto. intros C. rewrite C in E2. discriminate.
Qed.
Lemma validate_insert_complete r :
  MIN_DOC_ID <= ir_doc_id r -> ir_embedding r <> [] -> len (ir_embedding r) <= MAX_EMBEDDING_DIM ->
  all_finite (ir_embedding r) = true -> validate_insert_request r = VOk tt.
Proof.
  intros H1 H2 H3 H4. unfold validate_insert_request.
  apply N.ltb_ge in H1, H3. rewrite H1.
  destruct (is_nil (ir_embedding r)) eqn:E2; [apply is_nil_true in E2; contradiction|].
  rewrite H3. apply existsb_negb_forallb in H4. rewrite H4. reflexivity.
Qed.

Lemma sat_mul_ge a b : 1 <= b -> a <= USIZE_MAX -> a <= sat_mul a b.
Proof. intros. unfold sat_mul. apply N.min_glb; nia. Qed.

(* oversampling never shrinks k: the factor is at least 1, the saturating product and the cap 10000 stay above k *)
Lemma oversampled_k_ge k base (ns : bool) : 1 <= base -> k <= 10000 ->
  k <= N.min (sat_mul k (if ns then N.min (sat_mul base 4) 10 else base)) 10000.
Proof.
  intros HB HK. apply N.min_glb; [|exact HK]. apply sat_mul_ge; [|unfold USIZE_MAX; lia].
  destruct ns; [|exact HB]. apply N.min_glb; [|lia]. unfold sat_mul, USIZE_MAX. apply N.min_glb; lia.
Qed.

Lemma validate_search_sound r p :
  validate_search_request r = VOk p ->
  sr_query_embedding r <> [] /\ len (sr_query_embedding r) <= MAX_EMBEDDING_DIM
  /\ all_finite (sr_query_embedding r) = true
  /\ 1 <= sr_k r <= MAX_KNN_K /\ sr_ef_search r <= 10000
  /\ sr_k r <= search_k p <= 10000
  /\ ef_search_override p = (if sr_ef_search r =? 0 then None else Some (sr_ef_search r)).
Proof.
  unfold validate_search_request.
  destruct (is_nil (sr_query_embedding r)) eqn:E1; [discriminate|].
  destruct (MAX_EMBEDDING_DIM <? len (sr_query_embedding r)) eqn:E2; [discriminate|].
  destruct (existsb _ (sr_query_embedding r)) eqn:E3; [discriminate|].
  destruct (sr_k r =? 0) eqn:E4; [discriminate|].
  destruct (MAX_KNN_K <? sr_k r) eqn:E5; [discriminate|].
  destruct (10000 <? sr_ef_search r) eqn:E6; [discriminate|].
  intros H. injection H as <-. cbn [search_k ef_search_override].
  apply N.ltb_ge in E2, E5, E6. apply N.eqb_neq in E4. apply existsb_negb_forallb in E3.
  assert (HK : MAX_KNN_K = 1000) by reflexivity.
  repeat split; auto; try lia.
  - intros C. rewrite C in E1. discriminate.
  - apply oversampled_k_ge; [|lia]. destruct (sr_filter r); [apply oversampling_bounds|lia].
Qed.

Definition nf (v : list fclass) : bool := existsb (fun c => negb (fc_is_finite c)) v.
Lemma all_finite_nf v : all_finite v = true <-> nf v = false.
Proof. symmetry. apply existsb_negb_forallb. Qed.

Lemma normalize_len m e w : normalize m e = Some w -> List.length (e_cls w) = List.length (e_cls e).
Proof.
  unfold normalize. destruct m; [intros H; injection H as <-; reflexivity|].
  destruct (e_unit e); [intros H; injection H as <-; reflexivity|].
  destruct (nsq (e_cls e)); intros H; try discriminate; injection H as <-; cbn [e_cls];
    rewrite ?map_length; reflexivity.
Qed.
Lemma nf_map_scale v : nf v = true -> nf (map scale_by_zero v) = true.
Proof.
  unfold nf. induction v as [|c r IH]; cbn; [congruence|].
  destruct c; cbn; auto.
Qed.
Lemma nf_map_nan v : nf v = true -> nf (map (fun _ => NaN) v) = true.
Proof. unfold nf. destruct v; cbn; [congruence|reflexivity]. Qed.
Lemma normalize_keeps_nf m e w : normalize m e = Some w -> nf (e_cls e) = true -> nf (e_cls w) = true.
Proof.
  unfold normalize. destruct m; [intros H; injection H as <-; auto|].
  destruct (e_unit e); [intros H; injection H as <-; auto|].
  destruct (nsq (e_cls e)); intros H; try discriminate; injection H as <-; cbn [e_cls]; intros Hn;
    auto using nf_map_scale, nf_map_nan.
Qed.
Lemma len_eqb_length {A B} (a : list A) (b : list B) : List.length a = List.length b -> len a = len b.
Proof. unfold len. congruence. Qed.

(* the only way a vector enters the collection is `store`, guarded by the engine's acceptance; acceptance
   implies all-finite and the configured dimension *)
Lemma cold_insert_ok_spec cfg e :
  cold_insert_ok cfg e = true -> nf (e_cls e) = false /\ len (e_cls e) = c_dim cfg.
Proof.
  unfold cold_insert_ok. destruct (len (e_cls e) =? c_dim cfg) eqn:D; [|discriminate]. cbn [negb].
  destruct (normalize (c_metric cfg) e) as [w|] eqn:E; [|discriminate].
  destruct (existsb _ (e_cls w)) eqn:F; [discriminate|]. intros _. split; [|apply N.eqb_eq; exact D].
  destruct (nf (e_cls e)) eqn:G; [|reflexivity]. apply (normalize_keeps_nf _ _ _ E) in G.
  unfold nf in G. congruence.
Qed.
Lemma tiered_insert_ok_spec cfg v :
  tiered_insert_ok cfg v = true -> nf v = false /\ len v = c_dim cfg.
Proof.
  unfold tiered_insert_ok. destruct (normalize (c_metric cfg) (mkEvec v false)) as [w|] eqn:E; [|discriminate].
  intros H. apply cold_insert_ok_spec in H as [HF HL]. split.
  - destruct (nf v) eqn:G; [|reflexivity]. apply (normalize_keeps_nf _ _ _ E) in G. congruence.
  - rewrite <- HL. symmetry. apply len_eqb_length, (normalize_len _ _ _ E).
Qed.
Lemma direct_cold_insert_ok_spec cfg v :
  direct_cold_insert_ok cfg v = true -> nf v = false /\ len v = c_dim cfg.
Proof. apply cold_insert_ok_spec. Qed.

Lemma tiered_insert_refuses_nf cfg v : nf v = true -> tiered_insert_ok cfg v = false.
Proof. intros H. apply not_true_is_false. intros E. apply tiered_insert_ok_spec in E as [E _]. congruence. Qed.
Lemma direct_cold_insert_refuses_nf cfg v : nf v = true -> direct_cold_insert_ok cfg v = false.
Proof. intros H. apply not_true_is_false. intros E. apply direct_cold_insert_ok_spec in E as [E _]. congruence. Qed.
Lemma tiered_insert_wrong_dim cfg v : len v <> c_dim cfg -> tiered_insert_ok cfg v = false.
Proof. intros H. apply not_true_is_false. intros E. apply tiered_insert_ok_spec in E as [_ E]. contradiction. Qed.
Lemma tiered_insert_zero_norm cfg v :
  c_metric cfg = Cosine -> nsq v = SqTiny -> tiered_insert_ok cfg v = false.
Proof. intros HM HZ. unfold tiered_insert_ok, normalize. rewrite HM. cbn [e_unit e_cls]. rewrite HZ. reflexivity. Qed.
Lemma direct_cold_insert_zero_norm cfg v :
  c_metric cfg = Cosine -> nsq v = SqTiny -> direct_cold_insert_ok cfg v = false.
Proof.
  intros HM HZ. unfold direct_cold_insert_ok, cold_insert_ok, normalize. rewrite HM. cbn [e_unit e_cls]. rewrite HZ.
  destruct (negb _); reflexivity.
Qed.
(* a finite vector whose squares overflow: scaled to zeros by the first normalisation, refused by the second *)
Lemma has_cls_zeros c (v : list fclass) : c <> Zero -> has_cls c (map (fun _ => Zero) v) = false.
Proof. intros H. unfold has_cls. induction v; cbn; [reflexivity|]. rewrite IHv. destruct c; cbn; congruence. Qed.
Lemma scale_finite (v : list fclass) : nf v = false -> map scale_by_zero v = map (fun _ => Zero) v.
Proof.
  unfold nf. induction v as [|c r IH]; cbn; [reflexivity|]. intros H. apply orb_false_iff in H as [H1 H2].
  rewrite (IH H2). destruct c; cbn in *; congruence.
Qed.
Lemma tiered_insert_overflow cfg v :
  c_metric cfg = Cosine -> nsq v = SqInf -> nf v = false -> tiered_insert_ok cfg v = false.
Proof.
  intros HM HI HF. unfold tiered_insert_ok, normalize. rewrite HM. cbn [e_unit e_cls]. rewrite HI.
  unfold cold_insert_ok, normalize. rewrite HM. cbn [e_unit e_cls]. destruct (negb _); [reflexivity|].
  rewrite (scale_finite v HF). unfold nsq. rewrite !has_cls_zeros by congruence. reflexivity.
Qed.

Lemma engine_search_err_no_crash cfg b r c : engine_search_err cfg b r = Some c -> is_crash c = false.
Proof.
  unfold engine_search_err. destruct (negb _); [intros H; injection H as <-; reflexivity|].
  destruct (c_metric cfg); [discriminate|]. destruct (nsq _); try discriminate;
    intros H; injection H as <-; reflexivity.
Qed.
Lemma group_err_no_crash cfg r bad c : group_err cfg r bad = Some c -> is_crash c = false.
Proof.
  induction bad as [|x rest IH]; cbn [group_err]; [discriminate|].
  destruct (same_group r x); [apply engine_search_err_no_crash|exact IH].
Qed.
Lemma search_item_no_crash cfg bad r : sitem_no_crash (search_item cfg bad r) = true.
Proof.
  unfold search_item.
  destruct (validate_search_request _); [|reflexivity].
  destruct (group_err cfg r bad) eqn:E; [|reflexivity].
  cbn. rewrite (group_err_no_crash _ _ _ _ E). reflexivity.
Qed.
Definition is_read (r : request) : Prop :=
  match r with RQuery _ | RBulkQuery _ | RSearch _ | RBulkSearch _ | RFlush _ | RBatchDeleteNone => True | _ => False end.

(* a branch of a handler that ends in a concrete answer: no crash class, and either the collection it was
   given or the Ok answer of a write *)
Ltac shape_leaf :=
  split; [reflexivity|]; first [left; reflexivity | right; left; split; [reflexivity | exact (fun x => x)]].

(* one walk through the handlers for totality and for both no-effect theorems *)
Lemma handle_shape cfg ds r :
  no_crash (snd (handle cfg ds r)) = true /\
  (fst (handle cfg ds r) = ds \/ (refused (snd (handle cfg ds r)) = false /\ ~ is_read r) \/ exists its, r = RBulkLoad its).
Proof.
  destruct r; cbn [handle]; try shape_leaf.
  - unfold h_insert. destruct (validate_insert_request _); [|shape_leaf].
    destruct (map_doc_id _); [|shape_leaf]. destruct (tiered_insert_ok _ _); shape_leaf.
  - split; [|eauto]. unfold h_bulk_load. destruct (bl_refused _); [reflexivity|].
    destruct (match bl_pending _ with [] => _ | _ => _ end) as [d [l f]]. reflexivity.
  - unfold h_query. destruct (id =? 0); [shape_leaf|]. destruct (map_doc_id id); shape_leaf.
  - unfold h_bulk_query. destruct (_ <? _); [shape_leaf|]. destruct (map_ids ids); shape_leaf.
  - unfold h_search. destruct (negb _); [shape_leaf|]. destruct (validate_search_request _); [|shape_leaf].
    destruct (engine_search_err cfg false s) eqn:E; [|shape_leaf].
    split; [|left; reflexivity]. cbn. rewrite (engine_search_err_no_crash _ _ _ _ E). reflexivity.
  - split; [|left; reflexivity]. unfold h_bulk_search. cbn [snd no_crash]. apply andb_true_iff. split.
    + apply forallb_forall. intros x Hx. apply in_map_iff in Hx as [y [<- _]]. apply search_item_no_crash.
    + destruct (negb _); [reflexivity|]. destruct (_ <? _); reflexivity.
  - unfold h_update. destruct (id =? 0); [shape_leaf|]. destruct (map_doc_id id); [|shape_leaf].
    destruct (dget ds n); shape_leaf.
  - unfold h_delete. destruct (id <? MIN_DOC_ID); [shape_leaf|]. destruct (map_doc_id id); shape_leaf.
  - unfold h_batch_delete_ids. destruct (_ <? _); [shape_leaf|]. destruct (map_ids ids); shape_leaf.
  - unfold h_batch_delete_filter. destruct (negb _); shape_leaf.
Qed.

Definition ireq (it : item) : insert_req := mkInsertReq (i_id it) (v_cls (i_vec it)).
(* the boundary classes of the insert validator: each defect is excluded by validate_insert_sound *)
Lemma insert_invalid cfg ds it :
  i_id it = 0 \/ v_cls (i_vec it) = [] \/ MAX_EMBEDDING_DIM < len (v_cls (i_vec it)) \/ nf (v_cls (i_vec it)) = true ->
  h_insert cfg ds it = (ds, Refused InvalidArgument).
Proof.
  intros H. unfold h_insert. destruct (validate_insert_request _) eqn:E; [|reflexivity].
  apply validate_insert_sound in E as (H1 & H2 & H3 & H4). cbn [ir_doc_id ir_embedding] in *.
  apply all_finite_nf in H4. unfold MIN_DOC_ID in H1.
  exfalso. destruct H as [H|[H|[H|H]]]; [lia|contradiction|lia|congruence].
Qed.
Lemma insert_id_beyond_range cfg ds it :
  U32_MAX < i_id it -> h_insert cfg ds it = (ds, Refused InvalidArgument).
Proof.
  intros H. unfold h_insert. destruct (validate_insert_request _); [|reflexivity].
  unfold map_doc_id. apply N.ltb_lt in H. rewrite H. reflexivity.
Qed.
Lemma insert_engine_refusal cfg ds it u :
  validate_insert_request (ireq it) = VOk u -> i_id it <= U32_MAX -> tiered_insert_ok cfg (v_cls (i_vec it)) = false ->
  h_insert cfg ds it = (ds, Refused Internal).
Proof.
  intros HV HI HE. unfold h_insert. fold (ireq it). rewrite HV. unfold map_doc_id.
  apply N.ltb_ge in HI. rewrite HI, HE. reflexivity.
Qed.
Lemma insert_overflowing_vector_cosine cfg ds it u :
  validate_insert_request (ireq it) = VOk u -> i_id it <= U32_MAX -> c_metric cfg = Cosine ->
  nsq (v_cls (i_vec it)) = SqInf -> h_insert cfg ds it = (ds, Refused Internal).
Proof.
  intros HV HI HM HS. apply (insert_engine_refusal cfg ds it u HV HI). apply tiered_insert_overflow; [exact HM|exact HS|].
  apply validate_insert_sound in HV as (_ & _ & _ & HF). apply all_finite_nf. exact HF.
Qed.

Lemma search_invalid cfg ds r :
  decodable cfg (q_filter r) = true ->
  q_vec r = [] \/ MAX_EMBEDDING_DIM < len (q_vec r) \/ nf (q_vec r) = true
  \/ q_k r = 0 \/ MAX_KNN_K < q_k r \/ 10000 < q_ef r ->
  h_search cfg ds r = (ds, Refused InvalidArgument).
Proof.
  intros HD H. unfold h_search. rewrite HD. cbn [negb].
  destruct (validate_search_request _) eqn:E; [|reflexivity].
  apply validate_search_sound in E as (H1 & H2 & H3 & H4 & H5 & _).
  cbn [sview sr_query_embedding sr_k sr_ef_search] in *. apply all_finite_nf in H3.
  exfalso. destruct H as [H|[H|[H|[H|[H|H]]]]]; [contradiction|lia|congruence|lia|lia|lia].
Qed.
Lemma search_wrong_dimension cfg ds r p :
  decodable cfg (q_filter r) = true -> validate_search_request (sview r) = VOk p -> len (q_vec r) <> c_dim cfg ->
  h_search cfg ds r = (ds, Refused InvalidArgument).
Proof.
  intros HD HV H. unfold h_search. rewrite HD, HV. unfold engine_search_err.
  apply N.eqb_neq in H. rewrite H. reflexivity.
Qed.
Lemma search_zero_vector_cosine cfg ds r p :
  decodable cfg (q_filter r) = true -> validate_search_request (sview r) = VOk p -> len (q_vec r) = c_dim cfg ->
  c_metric cfg = Cosine -> nsq (q_vec r) = SqTiny -> h_search cfg ds r = (ds, Refused Internal).
Proof.
  intros HD HV HL HM HZ. unfold h_search. rewrite HD, HV. unfold engine_search_err.
  rewrite HL, N.eqb_refl, HM, HZ. reflexivity.
Qed.
Lemma search_filter_too_deep cfg ds r f :
  q_filter r = Some f -> c_decode_depth cfg < pdepth f -> h_search cfg ds r = (ds, Refused Internal).
Proof.
  intros HF H. unfold h_search, decodable. rewrite HF. apply N.leb_gt in H. rewrite H. reflexivity.
Qed.
Lemma batch_delete_filter_too_deep cfg ds f :
  c_decode_depth cfg < pdepth f -> h_batch_delete_filter cfg ds f = (ds, Refused Internal).
Proof. intros H. unfold h_batch_delete_filter, decodable. apply N.leb_gt in H. rewrite H. reflexivity. Qed.
Lemma pdepth_not_chain f : pdepth (PNot (Some f)) = 2 + pdepth f.
Proof. reflexivity. Qed.

Lemma map_doc_id_beyond id : U32_MAX < id -> map_doc_id id = None.
Proof. intros H. unfold map_doc_id. apply N.ltb_lt in H. rewrite H. reflexivity. Qed.
Lemma map_ids_beyond ids id : In id ids -> U32_MAX < id -> map_ids ids = None.
Proof.
  induction ids as [|x r IH]; cbn [In map_ids]; [tauto|]. intros [->|H] HB.
  - rewrite (map_doc_id_beyond _ HB). reflexivity.
  - rewrite (IH H HB). destruct (map_doc_id x); reflexivity.
Qed.
(* an id (one id of a batch) that the tenant mapping refuses: every handler that maps ids answers INVALID_ARGUMENT *)
Lemma unmapped_id_refused ds id : map_doc_id id = None ->
  h_query ds id = (ds, Refused InvalidArgument) /\ (forall m b, h_update ds id m b = (ds, Refused InvalidArgument))
  /\ h_delete ds id = (ds, Refused InvalidArgument).
Proof.
  intros H. unfold h_query, h_update, h_delete. rewrite H.
  destruct (id =? 0), (id <? MIN_DOC_ID); repeat split; reflexivity.
Qed.
Lemma unmapped_ids_refused cfg ds ids : map_ids ids = None ->
  h_bulk_query cfg ds ids = (ds, Refused InvalidArgument) /\ h_batch_delete_ids cfg ds ids = (ds, Refused InvalidArgument).
Proof.
  intros H. unfold h_bulk_query, h_batch_delete_ids. rewrite H. destruct (_ <? _); split; reflexivity.
Qed.
Lemma query_id0 ds : h_query ds 0 = (ds, Refused InvalidArgument).
Proof. reflexivity. Qed.
Lemma update_id0 ds m b : h_update ds 0 m b = (ds, Refused InvalidArgument).
Proof. reflexivity. Qed.
Lemma delete_id0 ds : h_delete ds 0 = (ds, Refused InvalidArgument).
Proof. reflexivity. Qed.
Lemma bulk_query_oversized cfg ds ids : c_max_batch cfg < len ids -> h_bulk_query cfg ds ids = (ds, Refused InvalidArgument).
Proof. intros H. unfold h_bulk_query. apply N.ltb_lt in H. rewrite H. reflexivity. Qed.
Lemma bulk_query_empty cfg ds : h_bulk_query cfg ds [] = (ds, OkBulkQuery []).
Proof. unfold h_bulk_query. rewrite len_nil, ltb_0. reflexivity. Qed.
Lemma batch_delete_ids_oversized cfg ds ids :
  c_max_batch cfg < len ids -> h_batch_delete_ids cfg ds ids = (ds, Refused InvalidArgument).
Proof. intros H. unfold h_batch_delete_ids. apply N.ltb_lt in H. rewrite H. reflexivity. Qed.
Lemma batch_delete_ids_empty cfg ds : h_batch_delete_ids cfg ds [] = (ds, OkBatchDelete 0).
Proof.
  unfold h_batch_delete_ids. rewrite len_nil, ltb_0.
  cbn. unfold delete_all. cbn. f_equal. apply filter_true.
Qed.
Lemma batch_delete_none cfg ds : handle cfg ds RBatchDeleteNone = (ds, Refused InvalidArgument).
Proof. reflexivity. Qed.
Lemma bulk_insert_empty cfg ds : h_bulk_insert cfg ds [] = (ds, OkInsert true 0 0).
Proof. reflexivity. Qed.
Lemma bulk_load_empty cfg ds : h_bulk_load cfg ds [] = (ds, OkBulkLoad true 0 0).
Proof. reflexivity. Qed.
Lemma bulk_search_empty cfg ds : h_bulk_search cfg ds [] = (ds, OkBulkSearch [] None).
Proof.
  unfold h_bulk_search, take. rewrite len_nil, ltb_0.
  destruct (N.to_nat _); reflexivity.
Qed.
(* BulkInsert beyond the batch limit: the item is a per-item failure and nothing after it is looked at *)
Lemma bulk_insert_item_beyond_limit cfg a it :
  bi_stopped a = false -> c_max_batch cfg < bi_count a + 1 ->
  bi_step cfg a it = mkBi (bi_ds a) (bi_ins a) (bi_failed a + 1) (bi_count a + 1) true.
Proof.
  intros HS H. unfold bi_step, bi_item_outcome. rewrite HS. apply N.ltb_lt in H. rewrite H. reflexivity.
Qed.
Lemma bulk_insert_after_break cfg a it : bi_stopped a = true -> bi_step cfg a it = a.
Proof. intros H. unfold bi_step. rewrite H. reflexivity. Qed.

(* BulkInsert: an item is stored only if the engine accepts its vector; otherwise the collection is the one it found *)
Lemma bi_item_outcome_spec cfg a it :
  match bi_item_outcome cfg a it with
  | (ItemStored, _) => tiered_insert_ok cfg (v_cls (i_vec it)) = true
  | (_, ds') => ds' = bi_ds a
  end.
Proof.
  unfold bi_item_outcome.
  repeat match goal with
         | |- context [if ?c then _ else _] => destruct c eqn:?
         | |- context [match map_doc_id ?x with _ => _ end] => destruct (map_doc_id x)
         end; reflexivity.
Qed.
Lemma bi_step_failed_no_effect cfg a it :
  fst (bi_item_outcome cfg a it) <> ItemStored -> bi_ds (bi_step cfg a it) = bi_ds a.
Proof.
  intros H. pose proof (bi_item_outcome_spec cfg a it) as S. unfold bi_step.
  destruct (bi_stopped a); [reflexivity|].
  destruct (bi_item_outcome cfg a it) as [[] d]; cbn [fst bi_ds] in *; [contradiction|exact S|exact S].
Qed.
Lemma bi_item_nonfinite cfg a it : nf (v_cls (i_vec it)) = true -> fst (bi_item_outcome cfg a it) <> ItemStored.
Proof.
  intros H. pose proof (bi_item_outcome_spec cfg a it) as S.
  destruct (bi_item_outcome cfg a it) as [[] d]; cbn [fst]; try discriminate.
  rewrite (tiered_insert_refuses_nf cfg _ H) in S. discriminate.
Qed.
Lemma bl_step_invalid_no_effect cfg a it : bl_valid it = None -> bl_ds (bl_step cfg a it) = bl_ds a.
Proof.
  intros H. unfold bl_step. destruct (bl_refused a); [reflexivity|]. destruct (_ <? _); [reflexivity|].
  rewrite H. reflexivity.
Qed.
Lemma cold_load_refused_no_effect cfg ds c p :
  direct_cold_insert_ok cfg (v_cls (i_vec (snd p))) = false -> fst (cold_load_one cfg (ds, c) p) = ds.
Proof. intros H. unfold cold_load_one. destruct c. rewrite H. reflexivity. Qed.
Lemma cold_load_nonfinite_no_effect cfg ds c p :
  nf (v_cls (i_vec (snd p))) = true -> fst (cold_load_one cfg (ds, c) p) = ds.
Proof. intros H. apply cold_load_refused_no_effect. apply direct_cold_insert_refuses_nf. exact H. Qed.

(* a stream item is counted as received, and BulkLoadHnsw turns to refusing only when that count passes the cap *)
Lemma bl_step_spec cfg a it : bl_refused a = false ->
  bl_received (bl_step cfg a it) = bl_received a + 1 /\
  (bl_refused (bl_step cfg a it) = true -> c_max_total_load cfg < bl_received a + 1).
Proof.
  intros H. unfold bl_step. rewrite H.
  destruct (_ <? _) eqn:E; [split; [reflexivity|intros _; apply N.ltb_lt; exact E]|].
  destruct (bl_valid it); [|split; [reflexivity|discriminate]].
  destruct (_ <=? _); [|split; [reflexivity|discriminate]].
  destruct (ingest _ _ _) as [d [l f]]. split; [reflexivity|discriminate].
Qed.
Lemma bl_fold_refused cfg its : forall a,
  bl_refused a = false -> bl_refused (fold_left (bl_step cfg) its a) = true ->
  c_max_total_load cfg < bl_received a + len its.
Proof.
  induction its as [|it r IH]; intros a HA; cbn [fold_left]; [congruence|]. intros HR.
  rewrite len_cons. destruct (bl_step_spec cfg a it HA) as [R F].
  destruct (bl_refused (bl_step cfg a it)) eqn:E.
  - specialize (F eq_refl). lia.
  - pose proof (IH _ E HR) as H. rewrite R in H. lia.
Qed.
Lemma bulk_load_refused_only_beyond_cap cfg ds its ds' c :
  h_bulk_load cfg ds its = (ds', Refused c) -> c_max_total_load cfg < len its.
Proof.
  unfold h_bulk_load. destruct (bl_refused _) eqn:E.
  - intros _. pose proof (bl_fold_refused cfg its (mkBl ds [] 0 0 0 0 false) eq_refl E) as H. cbn [bl_received] in H. lia.
  - destruct (match bl_pending _ with [] => _ | _ => _ end) as [d [l f]]. discriminate.
Qed.

Theorem nonfinite_refused_everywhere cfg (it : item) :
  nf (v_cls (i_vec it)) = true ->
  (forall ds, h_insert cfg ds it = (ds, Refused InvalidArgument))
  /\ (forall a, bi_ds (bi_step cfg a it) = bi_ds a /\ bi_ins (bi_step cfg a it) = bi_ins a)
  /\ (forall ds c id, cold_load_one cfg (ds, c) (id, it) = (ds, (fst c, snd c + 1)))
  /\ tiered_insert_ok cfg (v_cls (i_vec it)) = false /\ direct_cold_insert_ok cfg (v_cls (i_vec it)) = false.
Proof.
  intros H. repeat split.
  - intros ds. apply insert_invalid. tauto.
  - apply bi_step_failed_no_effect, bi_item_nonfinite; exact H.
  - pose proof (bi_item_nonfinite cfg a it H) as Hn. unfold bi_step.
    destruct (bi_stopped a); [reflexivity|]. destruct (bi_item_outcome cfg a it) as [o d].
    cbn [fst] in Hn. destruct o; try reflexivity. congruence.
  - intros ds [l f] id. unfold cold_load_one. cbn [snd fst]. rewrite (direct_cold_insert_refuses_nf cfg _ H). reflexivity.
  - apply tiered_insert_refuses_nf; exact H.
  - apply direct_cold_insert_refuses_nf; exact H.
Qed.

Lemma decodable_prefix_all cfg rs : all_decodable cfg rs = true -> decodable_prefix cfg rs = rs.
Proof.
  unfold all_decodable. induction rs as [|r rest IH]; cbn [forallb decodable_prefix]; [reflexivity|].
  intros H. apply andb_true_iff in H as [H1 H2]. rewrite H1, (IH H2). reflexivity.
Qed.
Lemma take_all {A} n (l : list A) : len l <= n -> take n l = l.
Proof. intros H. unfold take. apply firstn_all2. unfold len in H. lia. Qed.
(* Every request of a stream within the batch limit whose messages all decode gets exactly one answer, in
   order: the stream ends normally and carries one item per request; the item of a request refused by the
   validator or by the engine is a per-item failure (SErr), never the end of the stream. *)
Theorem bulk_search_answered cfg ds rs :
  len rs <= c_max_batch cfg -> all_decodable cfg rs = true ->
  exists items,
    handle cfg ds (RBulkSearch rs) = (ds, OkBulkSearch items None)
    /\ List.length items = List.length rs
    /\ (forall i r, nth_error rs i = Some r ->
          nth_error items i = Some (search_item cfg (filter (engine_bad cfg) rs) r))
    /\ (forall r bad s, validate_search_request (sview r) = VErr s -> search_item cfg bad r = SErr InvalidArgument)
    /\ (forall r bad p, validate_search_request (sview r) = VOk p -> group_err cfg r bad = None -> search_item cfg bad r = SOk).
Proof.
  intros HL HD. exists (map (search_item cfg (filter (engine_bad cfg) rs)) rs).
  split; [|split; [|split; [|split]]].
  - cbn [handle]. unfold h_bulk_search. rewrite (take_all _ _ HL), HD, (decodable_prefix_all _ _ HD).
    apply N.ltb_ge in HL. rewrite HL. reflexivity.
  - apply map_length.
  - intros i r H. apply map_nth_error. exact H.
  - intros r bad s H. unfold search_item. rewrite H. reflexivity.
  - intros r bad p H HG. unfold search_item. rewrite H, HG. reflexivity.
Qed.
(* a stream the server ends itself: past the batch limit every accepted request is answered first; a message
   that does not decode ends the stream with INTERNAL *)
Theorem bulk_search_terminated cfg ds rs :
  (c_max_batch cfg < len rs -> all_decodable cfg (take (c_max_batch cfg) rs) = true ->
     exists items, handle cfg ds (RBulkSearch rs) = (ds, OkBulkSearch items (Some ResourceExhausted))
                   /\ len items = c_max_batch cfg)
  /\ (all_decodable cfg (take (c_max_batch cfg) rs) = false ->
     exists items, handle cfg ds (RBulkSearch rs) = (ds, OkBulkSearch items (Some Internal))).
Proof.
  split.
  - intros HL HD. eexists. split.
    + cbn [handle]. unfold h_bulk_search. rewrite HD. apply N.ltb_lt in HL. rewrite HL. reflexivity.
    + rewrite (decodable_prefix_all _ _ HD). unfold len, take. rewrite map_length, firstn_length_le.
      * apply N2Nat.id.
      * unfold len in HL. lia.
  - intros HD. eexists. cbn [handle]. unfold h_bulk_search. rewrite HD. reflexivity.
Qed.
(* The behaviour BEFORE /repo b58b923, kept as a labelled example: the per-request results were forwarded as
   stream items, and a gRPC response stream ends at its first Err item. *)
Fixpoint delivered_before_b58b923 (l : list sitem) : list sitem :=
  match l with
  | [] => []
  | SOk :: r => SOk :: delivered_before_b58b923 r
  | SErr c :: _ => [SErr c]
  end.
Definition w_cfg : config := mkCfg 2 Euclid 10000 10000000 100.
Definition w_ok : sreq := mkSreq [FinNZ; Zero] 1 0 [] None.
Definition w_k0 : sreq := mkSreq [FinNZ; Zero] 0 0 [] None.
Example bulk_search_abort_before_b58b923 :
  snd (handle w_cfg [] (RBulkSearch [w_ok; w_k0; w_ok])) = OkBulkSearch [SOk; SErr InvalidArgument; SOk] None
  /\ delivered_before_b58b923 [SOk; SErr InvalidArgument; SOk] = [SOk; SErr InvalidArgument].
Proof. split; vm_compute; reflexivity. Qed.

Example accepted_insert_has_effect :
  handle w_cfg [] (RInsert (mkItem 1 (mkVec 1 [FinNZ; Zero]) [])) = ([(1, mkDoc 1 [])], OkInsert true 1 0).
Proof. vm_compute. reflexivity. Qed.
Example accepted_search : snd (handle w_cfg [] (RSearch w_ok)) = OkSearch.
Proof. vm_compute. reflexivity. Qed.
Example constants_pinned : MAX_EMBEDDING_DIM = 4096 /\ MAX_KNN_K = 1000 /\ MIN_DOC_ID = 1.
Proof. repeat split; reflexivity. Qed.

Definition insert_passes (it : item) : Prop := exists u, validate_insert_request (ireq it) = VOk u.
Definition search_passes (r : sreq) : Prop := exists p, validate_search_request (sview r) = VOk p.
