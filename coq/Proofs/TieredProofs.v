(* Proofs about Model/Tiered.v (C04, C20, and the invariants C11tier builds on). *)
From Coq Require Import List NArith ZArith Bool Arith Lia.
From Kyro Require Import Model.TMap Model.Tiered Proofs.ListFacts Proofs.TMapFacts.
Import ListNotations.

Lemma filter_nil_false : forall {A} (p : A -> bool) l x, filter p l = [] -> In x l -> p x = false.
Proof.
  intros A p l x E I. destruct (p x) eqn:P; [|reflexivity].
  pose proof (proj2 (filter_In p x l) (conj I P)) as F. rewrite E in F. destruct F.
Qed.

Section MapLemmas.
  Context {A : Type}.
  Implicit Types l : list (N * A).

  Lemma remove_absent : forall k l, lookup k l = None -> remove k l = l.
  Proof.
    induction l as [|[k0 a] r IH]; cbn; intros H; auto.
    destruct (N.eqb k0 k); [congruence|]. rewrite IH; auto.
  Qed.
End MapLemmas.

Lemma lru_get_length : forall k l, length (fst (lru_get k l)) <= length l.
Proof.
  intros. unfold lru_get. destruct (lookup k l) eqn:E; cbn; auto.
  assert (H : lookup k l <> None) by congruence. apply length_remove_lt in H. lia.
Qed.

Lemma lru_insert_length : forall cap k e l, 1 <= cap -> length l <= cap -> length (lru_insert cap k e l) <= cap.
Proof.
  intros cap k e l Hc Hl. unfold lru_insert. destruct (mem k l) eqn:M; cbn.
  - apply mem_lookup in M. apply length_remove_lt in M. lia.
  - destruct (Nat.leb_spec cap (length l)); [|lia].
    rewrite removelast_firstn_len, firstn_length. lia.
Qed.

(* project a field out of nested field updates *)
Ltac sproj :=
  unfold bump_ins, bump_emerg, bump_fail, bump_flush, set_ctr, set_hot, set_cold, set_l1a, set_l1b;
  cbn [cold hot l1a l1b ctr fst snd].

Section Theorems.
  Variable digest : vec -> dgst.
  Variable valid : vec -> bool.
  (* 128-bit digest collision-freeness (coherence.rs digest_embedding) — the named assumption.  Only what
     a read RETURNS needs it (canon_match); every invariant of the histories holds for any digest. *)
  Definition collision_free : Prop := forall a b : vec, digest a = digest b -> a = b.

  Notation canon_state := (canon_state digest).
  Notation hot_probe := (hot_probe digest).
  Notation query := (query digest).
  Notation get_doc := (get_doc digest).
  Notation get_emb := (get_emb digest).
  Notation exists_ := (exists_ digest).
  Notation bulk := (bulk digest).
  Notation step := (step digest valid).
  Notation run := (run digest valid).
  Notation cold_insert := (cold_insert valid).

  (* the abstract map the engine refines: id -> (vector, metadata) of the canonical store *)
  Definition cold_docs (s : state) : list (N * (vec * meta)) :=
    map (fun p => (fst p, (c_vec (snd p), c_meta (snd p)))) (cold s).
  Definition payload (r : crec) : vec * meta := (c_vec r, c_meta r).
  Definition docs_of (cd : list (N * crec)) : list (N * (vec * meta)) := map (fun p => (fst p, payload (snd p))) cd.

  Lemma lookup_docs_of : forall cd id, lookup id (docs_of cd) = option_map payload (lookup id cd).
  Proof. intros. apply lookup_map. Qed.
  Lemma lookup_cold_docs : forall s id, lookup id (cold_docs s) = option_map payload (lookup id (cold s)).
  Proof. intros. apply lookup_docs_of. Qed.

  Lemma cold_l1_invalidate : forall c s id, cold (l1_invalidate c s id) = cold s.
  Proof. intros. unfold l1_invalidate. destruct (ab c); reflexivity. Qed.
  Lemma hot_l1_invalidate : forall c s id, hot (l1_invalidate c s id) = hot s.
  Proof. intros. unfold l1_invalidate. destruct (ab c); reflexivity. Qed.
  Lemma cold_l1_insert : forall c s id e, cold (l1_insert c s id e) = cold s.
  Proof. intros. unfold l1_insert. destruct (route c id); reflexivity. Qed.
  Lemma hot_l1_insert : forall c s id e, hot (l1_insert c s id e) = hot s.
  Proof. intros. unfold l1_insert. destruct (route c id); reflexivity. Qed.
  Lemma cold_hot_l1_get : forall c s id, cold (fst (l1_get c s id)) = cold s /\ hot (fst (l1_get c s id)) = hot s.
  Proof.
    intros. unfold l1_get. destruct (route c id); [destruct (lru_get id (l1b s))|destruct (lru_get id (l1a s))]; auto.
  Qed.
  Lemma cold_discard : forall c s id, cold (discard c s id) = cold s.
  Proof. intros. unfold discard. rewrite cold_l1_invalidate. reflexivity. Qed.
  Lemma hot_discard : forall c s id, hot (discard c s id) = remove id (hot s).
  Proof. intros. unfold discard. rewrite hot_l1_invalidate. reflexivity. Qed.

  Lemma canon_state_cold : forall s s' id v t, cold s' = cold s -> canon_state s' id v t = canon_state s id v t.
  Proof. intros. unfold Tiered.canon_state, cold_token. rewrite H. reflexivity. Qed.

  (* what a coherence-validated payload is: the canonical vector of its id *)
  Definition served (s : state) (id : N) (v : vec) : Prop :=
    exists r, lookup id (cold s) = Some r /\ v = c_vec r.

  Lemma canon_match : collision_free -> forall s id v t, canon_state s id v t = CMatch -> served s id v.
  Proof.
    intros digest_inj s id v t H. unfold Tiered.canon_state, cold_token in H.
    destruct (lookup id (cold s)) as [r|] eqn:E; [|discriminate].
    destruct (tok_eqb (c_ver r, digest (c_vec r)) t) eqn:T; cbn in H; [|discriminate].
    destruct (vec_eqb (digest v) (snd t)) eqn:V; cbn in H; [|discriminate].
    apply tok_eqb_eq in T. apply vec_eqb_eq in V. subst t. cbn in V.
    exists r. split; [exact E|]. apply digest_inj, V.
  Qed.

  Lemma canon_missing : forall s id v t, canon_state s id v t = CMissing -> lookup id (cold s) = None.
  Proof.
    intros s id v t H. unfold Tiered.canon_state, cold_token in H.
    destruct (lookup id (cold s)); auto.
    destruct (negb _); [discriminate|]. destruct (negb _); discriminate.
  Qed.

  Lemma served_cold : forall s s' id v, cold s' = cold s -> served s' id v -> served s id v.
  Proof. unfold served. intros s s' id v <-. auto. Qed.

  Lemma served_docs : forall s id v, served s id v -> option_map fst (lookup id (cold_docs s)) = Some v.
  Proof. intros s id v (r & L & ->). rewrite lookup_cold_docs, L. reflexivity. Qed.

  Definition no_orphan (s : state) : Prop :=
    forall id, lookup id (hot s) <> None -> lookup id (cold s) <> None.
  Definition hot_sub (s' s : state) : Prop :=
    forall k h, lookup k (hot s') = Some h -> lookup k (hot s) = Some h.
  Definition l1_ok (c : config) (s : state) : Prop :=
    length (l1a s) <= cap_a c /\ length (l1b s) <= cap_b c.
  Definition caps_ok (c : config) : Prop := 1 <= cap_a c /\ 1 <= cap_b c.

  Lemma hot_sub_refl : forall s, hot_sub s s.
  Proof. unfold hot_sub; auto. Qed.
  Lemma hot_sub_trans : forall a b d, hot_sub a b -> hot_sub b d -> hot_sub a d.
  Proof. unfold hot_sub; auto. Qed.
  Lemma hot_sub_eq : forall s' s, hot s' = hot s -> hot_sub s' s.
  Proof. unfold hot_sub; intros. rewrite <- H. auto. Qed.
  Lemma hot_sub_remove : forall s' s id, hot s' = remove id (hot s) -> hot_sub s' s.
  Proof.
    unfold hot_sub; intros s' s id H k h Hk. rewrite H, lookup_remove in Hk.
    destruct (N.eqb id k); congruence.
  Qed.
  Lemma hot_sub_remove_all : forall s' s ids, hot s' = remove_all ids (hot s) -> hot_sub s' s.
  Proof.
    unfold hot_sub; intros s' s ids H k h Hk. rewrite H, lookup_remove_all in Hk.
    destruct (existsb (N.eqb k) ids); congruence.
  Qed.
  Lemma hot_sub_nil : forall s' s, hot s' = [] -> hot_sub s' s.
  Proof. unfold hot_sub; intros s' s H k h. rewrite H. discriminate. Qed.

  Lemma l1_ok_get : forall c s id, l1_ok c s -> l1_ok c (fst (l1_get c s id)).
  Proof.
    unfold l1_ok, l1_get. intros c s id [Ha Hb]. destruct (route c id).
    - pose proof (lru_get_length id (l1b s)). destruct (lru_get id (l1b s)); cbn in *. lia.
    - pose proof (lru_get_length id (l1a s)). destruct (lru_get id (l1a s)); cbn in *. lia.
  Qed.
  Lemma l1_ok_invalidate : forall c s id, l1_ok c s -> l1_ok c (l1_invalidate c s id).
  Proof.
    unfold l1_ok, l1_invalidate. intros c s id [Ha Hb].
    pose proof (length_remove_le id (l1a s)). pose proof (length_remove_le id (l1b s)).
    destruct (ab c); cbn; lia.
  Qed.
  Lemma l1_ok_insert : forall c s id e, caps_ok c -> l1_ok c s -> l1_ok c (l1_insert c s id e).
  Proof.
    unfold l1_ok, l1_insert, caps_ok. intros c s id e [Ca Cb] [Ha Hb].
    destruct (route c id); cbn; (split; [|auto]; auto using lru_insert_length).
  Qed.
  Lemma l1_ok_frame : forall c s s', l1a s' = l1a s -> l1b s' = l1b s -> l1_ok c s -> l1_ok c s'.
  Proof. unfold l1_ok. intros c s s' -> ->. auto. Qed.

  (* what every read, drain, audit and tick does to a state: cache traffic and dropped mirror entries *)
  Definition quiet (c : config) (s' s : state) : Prop :=
    cold s' = cold s /\ hot_sub s' s /\ (caps_ok c -> l1_ok c s -> l1_ok c s').

  Lemma quiet_refl : forall c s, quiet c s s.
  Proof. intros. split; [|split]; auto using hot_sub_refl. Qed.
  Lemma quiet_trans : forall c a b d, quiet c a b -> quiet c b d -> quiet c a d.
  Proof. intros c a b d (A1 & A2 & A3) (B1 & B2 & B3). split; [congruence|]. split; eauto using hot_sub_trans. Qed.
  Lemma quiet_invalidate : forall c s id, quiet c (l1_invalidate c s id) s.
  Proof.
    intros. split; [apply cold_l1_invalidate|]. split; [apply hot_sub_eq, hot_l1_invalidate|].
    intros _. apply l1_ok_invalidate.
  Qed.
  Lemma quiet_discard : forall c s id, quiet c (discard c s id) s.
  Proof.
    intros. split; [apply cold_discard|]. split; [eapply hot_sub_remove, hot_discard|].
    intros _ H. unfold discard. apply l1_ok_invalidate. eapply l1_ok_frame; eauto.
  Qed.
  Lemma quiet_l1_insert : forall c s id e, quiet c (l1_insert c s id e) s.
  Proof.
    intros. split; [apply cold_l1_insert|]. split; [apply hot_sub_eq, hot_l1_insert|]. apply l1_ok_insert.
  Qed.
  Lemma quiet_l1_get : forall c s id, quiet c (fst (l1_get c s id)) s.
  Proof.
    intros. destruct (cold_hot_l1_get c s id) as [C H]. split; [exact C|]. split; [apply hot_sub_eq, H|].
    intros _. apply l1_ok_get.
  Qed.
  Lemma fold_invalidate_frame : forall c ids s,
    cold (fold_left (l1_invalidate c) ids s) = cold s /\
    hot (fold_left (l1_invalidate c) ids s) = hot s /\
    (l1_ok c s -> l1_ok c (fold_left (l1_invalidate c) ids s)).
  Proof.
    induction ids as [|i r IH]; cbn; intros s; auto.
    destruct (IH (l1_invalidate c s i)) as [A [B C]].
    rewrite A, B, cold_l1_invalidate, hot_l1_invalidate. auto using l1_ok_invalidate.
  Qed.

  (* R = True: no_orphan; token and payload equal: no stale mirror (C04); metadata equal: what the
     filtered delete needs (C11tier) *)
  Definition mirrored (R : hent -> crec -> Prop) (s : state) : Prop :=
    forall id h, lookup id (hot s) = Some h -> exists r, lookup id (cold s) = Some r /\ R h r.

  Lemma mirrored_orphan : forall R s, mirrored R s -> no_orphan s.
  Proof.
    intros R s M id H. destruct (lookup id (hot s)) as [h|] eqn:E; [|congruence].
    destruct (M id h E) as (r & L & _). congruence.
  Qed.
  Lemma orphan_mirrored : forall s, no_orphan s -> mirrored (fun _ _ => True) s.
  Proof.
    intros s NO id h H. destruct (lookup id (cold s)) as [r|] eqn:E; [eauto|].
    exfalso. apply (NO id); congruence.
  Qed.

  Lemma mirrored_shrink : forall R s s', hot_sub s' s ->
    (forall k h, lookup k (hot s') = Some h -> lookup k (cold s') = lookup k (cold s)) ->
    mirrored R s -> mirrored R s'.
  Proof. intros R s s' S C M id h H. rewrite (C id h H). apply M, S, H. Qed.

  Lemma mirrored_quiet : forall R c s s', quiet c s' s -> mirrored R s -> mirrored R s'.
  Proof. intros R c s s' (C & S & _). apply mirrored_shrink; [exact S|]. intros. rewrite C. reflexivity. Qed.

  Lemma mirrored_init : forall R docs, mirrored R (init docs).
  Proof. intros R docs id h. cbn. discriminate. Qed.

  Lemma hot_probe_ok : forall c s id,
    quiet c (fst (hot_probe c s id)) s /\
    (collision_free -> forall h, snd (hot_probe c s id) = Some h -> served s id (h_vec h)).
  Proof.
    intros. unfold Tiered.hot_probe. destruct (lookup id (hot s)) as [h|]; [|split; [apply quiet_refl|discriminate]].
    destruct (canon_state s id (h_vec h) (h_tok h)) eqn:C; cbn [fst snd];
      (split; [first [apply quiet_refl | apply quiet_discard]|]); try discriminate.
    intros Inj h0 [= <-]. eapply canon_match; eauto.
  Qed.

  Lemma quiet_adm : forall c (adm : bool) s id e, quiet c (if adm then l1_insert c s id e else s) s.
  Proof. intros. destruct adm; [apply quiet_l1_insert|apply quiet_refl]. Qed.

  (* the part of query after the cache has missed or been scrubbed *)
  Definition q_tail c (adm : bool) id (s2 : state) : state * option (vec * tier) :=
    match hot_probe c s2 id with
    | (s3, Some h) => ((if adm then l1_insert c s3 id (mkL (h_vec h) (h_tok h)) else s3), Some (h_vec h, THot))
    | (s3, None) =>
        match lookup id (cold s3) with
        | Some r => ((if adm then l1_insert c s3 id (mkL (c_vec r) (c_ver r, digest (c_vec r))) else s3), Some (c_vec r, TCold))
        | None => (s3, None)
        end
    end.

  Lemma q_tail_ok : forall c adm id s2 s, quiet c s2 s ->
    quiet c (fst (q_tail c adm id s2)) s /\
    (collision_free -> option_map fst (snd (q_tail c adm id s2)) = option_map fst (lookup id (cold_docs s))).
  Proof.
    intros c adm id s2 s Q. unfold q_tail. destruct (hot_probe_ok c s2 id) as [P1 P2].
    pose proof (quiet_trans _ _ _ _ P1 Q) as Q3.
    destruct (hot_probe c s2 id) as [s3 [h|]]; cbn [fst snd] in *.
    - split; [eapply quiet_trans; [apply quiet_adm|exact Q3]|].
      intros Inj. symmetry. apply served_docs, (served_cold s s2); [apply Q|exact (P2 Inj h eq_refl)].
    - rewrite lookup_cold_docs. destruct Q3 as [C3 Q3]. rewrite C3.
      destruct (lookup id (cold s)) as [r|]; cbn [fst snd]; (split; [|reflexivity]).
      + eapply quiet_trans; [apply quiet_adm|]. split; auto.
      + split; auto.
  Qed.

  Lemma query_ok : forall c s adm id,
    quiet c (fst (query c s adm id)) s /\
    (collision_free -> option_map fst (snd (query c s adm id)) = option_map fst (lookup id (cold_docs s))).
  Proof.
    intros. unfold Tiered.query. pose proof (quiet_l1_get c s id) as Q1.
    destruct (l1_get c s id) as [s1 [e|]]; cbn [fst] in Q1; [|exact (q_tail_ok c adm id s1 s Q1)].
    destruct (canon_state s1 id (l_vec e) (l_tok e)) eqn:C;
      try exact (q_tail_ok c adm id _ s (quiet_trans _ _ _ _ (quiet_invalidate c s1 id) Q1)).
    split; [exact Q1|]. intros Inj. symmetry. apply served_docs, (served_cold s s1); [apply Q1|eapply canon_match; eauto].
  Qed.

  Lemma get_doc_ok : forall c s id,
    quiet c (fst (get_doc c s id)) s /\ (collision_free -> snd (get_doc c s id) = lookup id (cold_docs s)).
  Proof.
    intros. unfold Tiered.get_doc. rewrite lookup_cold_docs.
    destruct (lookup id (cold s)) as [r0|] eqn:E; [|split; [apply quiet_refl|reflexivity]].
    destruct (hot_probe_ok c s id) as [P1 P2]. destruct (hot_probe c s id) as [s1 [h|]]; cbn [fst snd] in *.
    - split; [exact P1|]. intros Inj. destruct (P2 Inj h eq_refl) as (r & L & ->).
      rewrite E in L. injection L as <-. reflexivity.
    - destruct P1 as [C P1]. rewrite C, E. split; [split; auto|reflexivity].
  Qed.

  Definition e_tail c id (s1 : state) : state * option vec :=
    match hot_probe c s1 id with
    | (s2, Some h) => (s2, Some (h_vec h))
    | (s2, None) => (s2, match lookup id (cold s2) with Some r => Some (c_vec r) | None => None end)
    end.

  Lemma e_tail_ok : forall c id s1 s, quiet c s1 s ->
    quiet c (fst (e_tail c id s1)) s /\
    (collision_free -> snd (e_tail c id s1) = option_map fst (lookup id (cold_docs s))).
  Proof.
    intros c id s1 s Q. unfold e_tail. destruct (hot_probe_ok c s1 id) as [P1 P2].
    pose proof (quiet_trans _ _ _ _ P1 Q) as Q2.
    destruct (hot_probe c s1 id) as [s2 [h|]]; cbn [fst snd] in *; (split; [exact Q2|]).
    - intros Inj. symmetry. apply served_docs, (served_cold s s1); [apply Q|exact (P2 Inj h eq_refl)].
    - intros _. rewrite lookup_cold_docs. destruct Q2 as [-> _]. destruct (lookup id (cold s)); reflexivity.
  Qed.

  Lemma get_emb_ok : forall c s id,
    quiet c (fst (get_emb c s id)) s /\
    (collision_free -> snd (get_emb c s id) = option_map fst (lookup id (cold_docs s))).
  Proof.
    intros. unfold Tiered.get_emb. destruct (l1_peek c s id) as [e|]; [|exact (e_tail_ok c id s s (quiet_refl c s))].
    destruct (canon_state s id (l_vec e) (l_tok e)) eqn:C;
      try exact (e_tail_ok c id _ s (quiet_invalidate c s id)).
    split; [apply quiet_refl|]. intros Inj. symmetry. eapply served_docs, canon_match; eauto.
  Qed.

  Lemma get_meta_canonical : forall s id, get_meta s id = option_map snd (lookup id (cold_docs s)).
  Proof. intros. unfold get_meta. rewrite lookup_cold_docs. destruct (lookup id (cold s)); auto. Qed.

  Lemma exists_canonical : forall s id,
    exists_ s id = match lookup id (cold_docs s) with Some _ => true | None => false end.
  Proof. intros. unfold Tiered.exists_, cold_token. rewrite lookup_cold_docs. destruct (lookup id (cold s)); auto. Qed.

  Definition strip (x : option (vec * meta * tier)) : option (vec * meta) :=
    match x with Some (v, m, _) => Some (v, m) | None => None end.

  Lemma bulk_one_ok : forall c s id oh,
    quiet c (fst (bulk_one digest c s id oh)) s /\
    (collision_free ->
     snd (bulk_one digest c s id oh) = None \/ strip (snd (bulk_one digest c s id oh)) = lookup id (cold_docs s)).
  Proof.
    intros. unfold bulk_one. destruct oh as [h|]; [|split; [apply quiet_refl|auto]].
    destruct (canon_state s id (h_vec h) (h_tok h)) eqn:C;
      try (split; [first [apply quiet_refl | apply quiet_discard]|auto]).
    split; [destruct (lookup id (cold s)); apply quiet_refl|]. intros Inj.
    apply canon_match in C; [|exact Inj]. destruct C as (r & L & E). rewrite lookup_cold_docs, L, E. auto.
  Qed.

  Lemma fill_ok : forall s s' id x, cold s' = cold s -> x = None \/ strip x = lookup id (cold_docs s) ->
    strip (bulk_fill s' true (id, x)) = lookup id (cold_docs s).
  Proof.
    intros s s' id x C H. rewrite lookup_cold_docs in *. unfold bulk_fill. cbn [fst snd]. rewrite C.
    destruct H as [->|H]; [|destruct x as [[[v m] t]|]; [exact H|]]; destruct (lookup id (cold s)); reflexivity.
  Qed.

  Lemma bulk_hot_ok : forall c s snap s0, quiet c s0 s ->
    quiet c (fst (bulk_hot digest c s0 snap)) s /\
    forall s', collision_free -> cold s' = cold s ->
      map (fun p => strip (bulk_fill s' true p)) (combine (map fst snap) (snd (bulk_hot digest c s0 snap)))
      = map (fun i => lookup i (cold_docs s)) (map fst snap).
  Proof.
    induction snap as [|[id oh] r IH]; intros s0 Q; cbn [bulk_hot]; [split; auto|].
    destruct (bulk_one_ok c s0 id oh) as [Q1 X]. destruct (bulk_one digest c s0 id oh) as [s1 x]. cbn [fst snd] in *.
    destruct (IH s1 (quiet_trans _ _ _ _ Q1 Q)) as [Q2 M]. destruct (bulk_hot digest c s1 r) as [s2 xs]. cbn [fst snd] in *.
    split; [exact Q2|]. intros s' Inj C. cbn [map combine fst]. f_equal; [|apply M; assumption].
    apply fill_ok; [exact C|]. rewrite lookup_cold_docs in *. destruct Q as [<- _]. exact (X Inj).
  Qed.

  Lemma bulk_ok : forall c s ids,
    (forall inc, quiet c (fst (bulk c s inc ids)) s) /\
    (collision_free -> map strip (snd (bulk c s true ids)) = map (fun i => lookup i (cold_docs s)) ids).
  Proof.
    intros. unfold Tiered.bulk. set (snap := map (fun id => (id, lookup id (hot s))) ids).
    assert (E : map fst snap = ids) by (unfold snap; rewrite map_map; apply map_id).
    destruct (bulk_hot_ok c s snap s (quiet_refl c s)) as [Q M].
    destruct (bulk_hot digest c s snap) as [s1 part]. cbn [fst snd] in *. split; [intros _; exact Q|].
    intros Inj. rewrite map_map, <- E at 1. rewrite (M s1 Inj (proj1 Q)), E. reflexivity.
  Qed.

  Lemma reads_agree : collision_free ->
    forall c s s', (forall k, lookup k (cold_docs s') = lookup k (cold_docs s)) ->
    forall adm adm' id ids,
    option_map fst (snd (query c s' adm' id)) = option_map fst (snd (query c s adm id)) /\
    snd (get_doc c s' id) = snd (get_doc c s id) /\
    snd (get_emb c s' id) = snd (get_emb c s id) /\
    get_meta s' id = get_meta s id /\
    exists_ s' id = exists_ s id /\
    map strip (snd (bulk c s' true ids)) = map strip (snd (bulk c s true ids)).
  Proof.
    intros Inj c s s' K adm adm' id ids.
    rewrite (proj2 (query_ok c s' adm' id) Inj), (proj2 (query_ok c s adm id) Inj).
    rewrite (proj2 (get_doc_ok c s' id) Inj), (proj2 (get_doc_ok c s id) Inj).
    rewrite (proj2 (get_emb_ok c s' id) Inj), (proj2 (get_emb_ok c s id) Inj).
    rewrite !get_meta_canonical, !exists_canonical, (proj2 (bulk_ok c s' ids) Inj), (proj2 (bulk_ok c s ids) Inj), !K.
    repeat split. apply map_ext, K.
  Qed.

  Lemma no_orphan_quiet : forall c s' s, quiet c s' s -> no_orphan s -> no_orphan s'.
  Proof. intros c s' s Q NO. eapply mirrored_orphan, mirrored_quiet, orphan_mirrored; eauto. Qed.

  Lemma reconcile_fold_l1 : forall c docs s n f,
    l1_ok c s -> l1_ok c (fst (fst (fold_left (reconcile_one valid c) docs (s, n, f)))).
  Proof.
    induction docs as [|d r IH]; cbn; intros s n f H; auto.
    destruct (lookup (fst d) (cold s)) as [rc|].
    - apply IH. destruct (negb _); auto. apply l1_ok_invalidate; auto.
    - destruct (cold_insert (cold s) (fst d) (h_vec (snd d)) (h_meta (snd d))); apply IH; auto.
  Qed.

  Lemma reconcile_fold_present : forall c docs s n f,
    (forall d, In d docs -> lookup (fst d) (cold s) <> None) ->
    exists s', fold_left (reconcile_one valid c) docs (s, n, f) = (s', n + length docs, f) /\
               cold s' = cold s /\ hot s' = hot s.
  Proof.
    induction docs as [|d r IH]; cbn; intros s n f H.
    - exists s. rewrite Nat.add_0_r. auto.
    - destruct (lookup (fst d) (cold s)) as [rc|] eqn:E; [|exfalso; apply (H d); auto].
      set (s1 := if negb (vec_feqb (c_vec rc) (h_vec (snd d))) then l1_invalidate c s (fst d) else s).
      assert (C1 : cold s1 = cold s) by (unfold s1; destruct (negb _); [apply cold_l1_invalidate|auto]).
      assert (H1 : hot s1 = hot s) by (unfold s1; destruct (negb _); [apply hot_l1_invalidate|auto]).
      destruct (IH s1 (S n) f) as [s' [F [C2 H2]]].
      { intros d0 Hd. rewrite C1. apply H. auto. }
      exists s'. rewrite F. split; [f_equal; f_equal; lia|]. split; congruence.
  Qed.

  Lemma drain_no_orphan : forall c s, no_orphan s ->
    cold (fst (drain_reconcile valid c s)) = cold s /\ hot (fst (drain_reconcile valid c s)) = [] /\
    snd (drain_reconcile valid c s) = Some (length (hot s)).
  Proof.
    intros c s NO. unfold drain_reconcile. destruct (hot s) as [|d r] eqn:E; [cbn; auto|].
    unfold reconcile.
    destruct (reconcile_fold_present c (d :: r) (bump_flush (set_hot s [])) 0 []) as [s' [F [C H]]].
    { intros [k a] Hd. cbn. apply NO. rewrite E. eapply in_lookup; eauto. }
    rewrite F. cbn. auto.
  Qed.

  Lemma drain_l1 : forall c s, l1_ok c s -> l1_ok c (fst (drain_reconcile valid c s)).
  Proof.
    intros c s H. unfold drain_reconcile. destruct (hot s) as [|d r]; [cbn; auto|].
    unfold reconcile.
    pose proof (reconcile_fold_l1 c (d :: r) (bump_flush (set_hot s [])) 0 [] H) as L.
    destruct (fold_left (reconcile_one valid c) (d :: r) (bump_flush (set_hot s []), 0, [])) as [[s1 n] f].
    cbn in L. destruct f; cbn; auto.
  Qed.

  Lemma flush_l1 : forall c s force, l1_ok c s -> l1_ok c (fst (flush valid c s force)).
  Proof.
    intros c s force H. unfold flush. destruct (negb force && negb (needs_flush c s)); cbn; auto.
    apply drain_l1; auto.
  Qed.

  Lemma flush_quiet : forall c s force, no_orphan s -> quiet c (fst (flush valid c s force)) s.
  Proof.
    intros c s force NO. split; [|split; [|intros _; apply flush_l1]]; unfold flush;
      destruct (negb force && negb (needs_flush c s)); cbn [fst]; try reflexivity; try apply hot_sub_refl.
    - apply (drain_no_orphan c s NO).
    - apply hot_sub_nil, (drain_no_orphan c s NO).
  Qed.

  Lemma audit_quiet : forall c s, quiet c (audit digest c s) s.
  Proof.
    intros c s. unfold audit. generalize (filter (stale_entry digest s) (hot s)). intros L. revert s.
    induction L as [|d r IH]; cbn [fold_left]; intros s; [apply quiet_refl|].
    eapply quiet_trans; [apply IH|]. apply (quiet_discard c s (fst d)).
  Qed.

  Lemma tick_quiet : forall c s, no_orphan s -> quiet c (tick digest valid c s) s.
  Proof.
    intros c s NO. unfold tick. pose proof (audit_quiet c s) as Q.
    destruct (needs_flush c (audit digest c s)); [|exact Q].
    eapply quiet_trans; [|exact Q]. apply flush_quiet. eapply no_orphan_quiet; eauto.
  Qed.

  Lemma tick_l1 : forall c s, caps_ok c -> l1_ok c s -> l1_ok c (tick digest valid c s).
  Proof.
    intros c s Cc H. unfold tick. pose proof (proj2 (proj2 (audit_quiet c s)) Cc H) as L.
    destruct (needs_flush c (audit digest c s)); auto. apply flush_l1; auto.
  Qed.

  Lemma insert_l1 : forall c s id v m, l1_ok c s -> l1_ok c (fst (insert digest valid c s id v m)).
  Proof.
    intros c s id v m H. unfold Tiered.insert. set (pre := if hard c <=? length (hot s) then _ else _).
    assert (L : l1_ok c (fst pre)).
    { unfold pre. destruct (hard c <=? length (hot s)); auto.
      pose proof (drain_l1 c s H) as L. destruct (drain_reconcile valid c s) as [s0 r]. exact L. }
    clearbody pre. destruct pre as [s1 ok]. cbn [fst] in L. destruct ok; cbn; auto.
    pose proof (l1_ok_invalidate c s1 id L) as L2.
    destruct (cold_insert (cold (l1_invalidate c s1 id)) id v m); cbn; auto.
  Qed.

  (* without orphans the emergency drain cannot fail: insert writes into a mirror h1 that is empty
     (drained) or the old one with room left *)
  Lemma insert_no_orphan : forall c s id v m, no_orphan s ->
    let r := insert digest valid c s id v m in
    let ver := match lookup id (cold s) with Some r0 => N.succ (c_ver r0) | None => 1%N end in
    exists h1, (h1 = [] \/ (h1 = hot s /\ length (hot s) < hard c)) /\
      snd r = valid v /\
      cold (fst r) = (if valid v then put id (mkC v (meta_canon m) ver) (cold s) else cold s) /\
      hot (fst r) = (if valid v then put id (mkH v (meta_canon m) (ver, digest v)) h1 else h1).
  Proof.
    intros c s id v m NO. cbv zeta. unfold Tiered.insert.
    set (pre := if hard c <=? length (hot s) then _ else _). (* the emergency-drain prologue *)
    assert (P : exists s1, pre = (s1, true) /\ cold s1 = cold s /\
                           (hot s1 = [] \/ (hot s1 = hot s /\ length (hot s) < hard c))).
    { unfold pre. destruct (Nat.leb_spec (hard c) (length (hot s))); [|exists s; auto].
      destruct (drain_no_orphan c s NO) as [A [B C]].
      destruct (drain_reconcile valid c s) as [s0 r]. cbn in *. subst r. exists (bump_emerg s0). auto. }
    clearbody pre. destruct P as (s1 & -> & C1 & H1). cbn [negb]. cbv zeta. exists (hot s1). split; [exact H1|].
    unfold Tiered.cold_insert, cold_token. rewrite cold_l1_invalidate, C1.
    destruct (valid v); sproj; rewrite ?hot_l1_invalidate, ?cold_l1_invalidate, ?lookup_put, ?N.eqb_refl; auto.
  Qed.

  Lemma delete_tiers : forall c s id,
    cold (fst (delete c s id)) = remove id (cold s) /\ hot (fst (delete c s id)) = remove id (hot s) /\
    (l1_ok c s -> l1_ok c (fst (delete c s id))).
  Proof.
    intros. unfold delete. destruct (_ && _); cbn [fst]; rewrite ?cold_l1_invalidate, ?hot_l1_invalidate;
      (split; [reflexivity|split; [reflexivity|intros H]]); [|apply l1_ok_invalidate];
      (eapply l1_ok_frame; [| |exact H]; reflexivity).
  Qed.

  Lemma batch_delete_tiers : forall c s ids,
    (forall k, lookup k (cold (fst (batch_delete c s ids))) =
               if existsb (N.eqb k) ids then None else lookup k (cold s)) /\
    (forall k, lookup k (hot (fst (batch_delete c s ids))) =
               if existsb (N.eqb k) ids then None else lookup k (hot s)) /\
    snd (batch_delete c s ids) =
      length (filter (fun id => mem id (hot s) || mem id (cold s)) (sort_dedup ids)) /\
    length (hot (fst (batch_delete c s ids))) <= length (hot s) /\
    (l1_ok c s -> l1_ok c (fst (batch_delete c s ids))).
  Proof.
    intros c s ids. unfold batch_delete.
    set (u := sort_dedup ids). set (p := fun id => mem id (hot s) || mem id (cold s)).
    destruct (Nat.eqb_spec (length (filter p u)) 0) as [E|_]; cbn [fst snd].
    - (* the early return: no listed id is present, so removing them would change nothing *)
      apply length_zero_iff_nil in E. rewrite E.
      assert (G : forall k, existsb (N.eqb k) ids = true -> lookup k (hot s) = None /\ lookup k (cold s) = None).
      { intros k X. rewrite <- (in_sort_dedup k ids) in X. apply existsb_eqb_In in X.
        apply (filter_nil_false _ _ _ E), orb_false_iff in X. unfold p, mem in X.
        destruct (lookup k (hot s)), (lookup k (cold s)), X; split; congruence. }
      split; [|split; [|split; [|split]]]; auto;
        intros k; destruct (existsb (N.eqb k) ids) eqn:X; auto; apply (G k X).
    - set (s1 := set_hot (set_cold s (remove_all u (cold s))) (remove_all u (hot s))).
      destruct (fold_invalidate_frame c u s1) as (A & B & L). rewrite A, B. unfold s1. sproj.
      split; [|split; [|split; [|split]]]; auto using length_remove_all_le;
        intros k; rewrite lookup_remove_all; unfold u; rewrite in_sort_dedup; reflexivity.
  Qed.

  Lemma batch_delete_mirrored : forall R c s ids, mirrored R s -> mirrored R (fst (batch_delete c s ids)).
  Proof.
    intros R c s ids. destruct (batch_delete_tiers c s ids) as (C & H & _).
    apply mirrored_shrink; intros k h; rewrite ?C, H; destruct (existsb (N.eqb k) ids); congruence.
  Qed.

  Lemma update_meta_tiers : forall s id m merge,
    let s' := fst (update_meta s id m merge) in
    l1a s' = l1a s /\ l1b s' = l1b s /\
    match lookup id (cold s) with
    | None => cold s' = cold s /\ hot s' = hot s
    | Some r =>
        cold s' = put id (mkC (c_vec r) (apply_meta (c_meta r) m merge) (c_ver r)) (cold s) /\
        hot s' = match lookup id (hot s) with
                 | Some h => put id (mkH (h_vec h) (apply_meta (h_meta h) m merge) (h_tok h)) (hot s)
                 | None => hot s
                 end
    end.
  Proof.
    intros s id m merge. cbv zeta. unfold update_meta. destruct (lookup id (cold s)) as [r|]; cbn [fst]; auto.
    sproj. destruct (lookup id (hot s)); cbn; auto.
  Qed.

  Definition ins_cold (cd : list (N * crec)) (d : N * vec * meta) : list (N * crec) :=
    match cold_insert cd (fst (fst d)) (snd (fst d)) (snd d) with Some x => x | None => cd end.

  Lemma bulk_fold_tiers : forall docs s a b s1 a1 b1,
    fold_left (bulk_load_one valid) docs (s, a, b) = (s1, a1, b1) ->
    cold s1 = fold_left ins_cold docs (cold s) /\ hot s1 = hot s /\ l1a s1 = l1a s /\ l1b s1 = l1b s.
  Proof.
    induction docs as [|[[id v] m] r IH]; cbn [fold_left]; intros s a b s1 a1 b1 F; [inversion F; auto|].
    unfold bulk_load_one at 2 in F. unfold ins_cold at 2. cbn [fst snd].
    destruct (cold_insert (cold s) id v m) as [cd|]; apply IH in F; exact F.
  Qed.

  Lemma bulk_load_tiers : forall c s docs,
    cold (fst (bulk_load valid c s docs)) = fold_left ins_cold docs (cold s) /\
    hot (fst (bulk_load valid c s docs)) = remove_all (map (fun d => fst (fst d)) docs) (hot s) /\
    (l1_ok c s -> l1_ok c (fst (bulk_load valid c s docs))).
  Proof.
    intros c s docs. unfold bulk_load.
    destruct (fold_left (bulk_load_one valid) docs (s, 0, 0)) as [[s1 a1] b1] eqn:F.
    destruct (bulk_fold_tiers docs s 0 0 s1 a1 b1 F) as (A & B & La & Lb).
    destruct (fold_invalidate_frame c (map (fun d => fst (fst d)) docs) s1) as (A2 & B2 & L).
    cbn [fst]. sproj. rewrite A2, B2, A, B. split; [reflexivity|]. split; [reflexivity|].
    intros H. apply L. eapply l1_ok_frame; eauto.
  Qed.

  Lemma ins_cold_outside : forall docs cd k,
    existsb (N.eqb k) (map (fun d => fst (fst d)) docs) = false ->
    lookup k (fold_left ins_cold docs cd) = lookup k cd.
  Proof.
    induction docs as [|[[id v] m] r IH]; cbn; intros cd k H; [reflexivity|].
    apply orb_false_iff in H. destruct H as [H1 H2]. rewrite (IH _ k H2).
    unfold ins_cold, Tiered.cold_insert. cbn [fst snd]. destruct (valid v); [|reflexivity].
    rewrite lookup_put, N.eqb_sym, H1. reflexivity.
  Qed.

  (* the abstract specification: a map from id to (vector, metadata); latest successful write wins *)
  Definition spec_insert (d : list (N * (vec * meta))) (id : N) (v : vec) (m : meta) :=
    if valid v then put id (v, meta_canon m) d else d.
  Definition spec_step (d : list (N * (vec * meta))) (o : op) : list (N * (vec * meta)) :=
    match o with
    | OInsert id v m => spec_insert d id v m
    | ODelete id => remove id d
    | OBatchDelete ids => remove_all ids d
    | OUpdMeta id m merge =>
        match lookup id d with
        | Some (v, m0) => put id (v, apply_meta m0 m merge) d
        | None => d
        end
    | OBulkLoad docs => fold_left (fun acc x => spec_insert acc (fst (fst x)) (snd (fst x)) (snd x)) docs d
    | _ => d
    end.

  Definition lk_eq (d d' : list (N * (vec * meta))) : Prop := forall k, lookup k d = lookup k d'.

  Lemma spec_insert_equiv : forall d d' id v m, lk_eq d d' -> lk_eq (spec_insert d id v m) (spec_insert d' id v m).
  Proof.
    unfold lk_eq, spec_insert. intros d d' id v m H k. destruct (valid v); auto.
    rewrite !lookup_put. destruct (N.eqb id k); auto.
  Qed.

  Lemma spec_step_equiv : forall o d d', lk_eq d d' -> lk_eq (spec_step d o) (spec_step d' o).
  Proof.
    intros o d d' H. destruct o; cbn [spec_step]; auto.
    - apply spec_insert_equiv; auto.
    - intros k. rewrite !lookup_remove. destruct (N.eqb id k); auto.
    - intros k. rewrite !lookup_remove_all. destruct (existsb (N.eqb k) ids); auto.
    - rewrite <- (H id). destruct (lookup id d) as [[v0 m0]|]; auto.
      intros k. rewrite !lookup_put. destruct (N.eqb id k); auto.
    - revert d d' H. induction docs as [|x r IH]; cbn; intros d d' H; auto.
      apply IH. apply spec_insert_equiv; auto.
  Qed.

  Lemma ins_cold_refines : forall docs cd d, lk_eq (docs_of cd) d ->
    lk_eq (docs_of (fold_left ins_cold docs cd))
          (fold_left (fun acc x => spec_insert acc (fst (fst x)) (snd (fst x)) (snd x)) docs d).
  Proof.
    induction docs as [|[[id v] m] r IH]; cbn [fold_left]; intros cd d H; [exact H|].
    apply IH. intros k. unfold ins_cold, Tiered.cold_insert, spec_insert. cbn [fst snd].
    destruct (valid v); [|apply H].
    rewrite lookup_docs_of, !lookup_put, <- H, lookup_docs_of. destruct (N.eqb id k); reflexivity.
  Qed.

  Definition quiet_op (o : op) : bool :=
    match o with
    | OInsert _ _ _ | ODelete _ | OBatchDelete _ | OUpdMeta _ _ _ | OBulkLoad _ | OPokeHot _ _ _ _ => false
    | _ => true
    end.
  (* the drain repairs orphans into the cold tier, so it is quiet only without them *)
  Definition drains (o : op) : bool := match o with OFlush _ | OTick => true | _ => false end.

  Lemma step_quiet : forall c s o, quiet_op o = true -> (drains o = true -> no_orphan s) ->
    quiet c (fst (step c s o)) s.
  Proof.
    intros c s o Q D. destruct o; try discriminate; cbn [Tiered.step]; rewrite ?fst_let.
    - apply query_ok.
    - apply get_doc_ok.
    - apply get_emb_ok.
    - apply quiet_refl.
    - apply quiet_refl.
    - apply bulk_ok.
    - apply flush_quiet, D, eq_refl.
    - apply audit_quiet.
    - apply tick_quiet, D, eq_refl.
    - split; [|split]; [destruct b; reflexivity|apply hot_sub_eq; destruct b; reflexivity|].
      intros [Ca Cb] [Ha Hb]. unfold poke_l1. destruct b; split; cbn; auto using lru_insert_length.
  Qed.

  Lemma step_l1_ok : forall c s o, caps_ok c -> l1_ok c s -> l1_ok c (fst (step c s o)).
  Proof.
    intros c s o Cc H.
    assert (Q : quiet_op o = true -> drains o = false -> l1_ok c (fst (step c s o))).
    { intros Q D. apply (step_quiet c s o Q); auto. rewrite D. discriminate. }
    destruct o; try (apply Q; reflexivity); clear Q; cbn [Tiered.step]; rewrite ?fst_let.
    - apply insert_l1, H.
    - apply delete_tiers, H.
    - apply batch_delete_tiers, H.
    - destruct (update_meta_tiers s id m merge) as (A & B & _). eapply l1_ok_frame; eauto.
    - apply bulk_load_tiers, H.
    - apply flush_l1, H.
    - apply tick_l1; auto.
    - exact H.
  Qed.

  Lemma step_refines : forall c s o, no_orphan s ->
    lk_eq (cold_docs (fst (step c s o))) (spec_step (cold_docs s) o).
  Proof.
    intros c s o NO k. destruct (quiet_op o) eqn:Qo.
    - destruct (step_quiet c s o Qo (fun _ => NO)) as [C _]. unfold cold_docs. rewrite C.
      destruct o; try discriminate; reflexivity.
    - destruct o; try discriminate; cbn [Tiered.step spec_step]; rewrite ?fst_let.
      + destruct (insert_no_orphan c s id v m NO) as (h1 & _ & _ & C & _). unfold spec_insert.
        rewrite lookup_cold_docs, C. destruct (valid v); [|symmetry; apply lookup_cold_docs].
        rewrite !lookup_put, lookup_cold_docs. destruct (N.eqb id k); reflexivity.
      + destruct (delete_tiers c s id) as (C & _).
        rewrite lookup_cold_docs, C, !lookup_remove, lookup_cold_docs. destruct (N.eqb id k); reflexivity.
      + destruct (batch_delete_tiers c s ids) as (C & _).
        rewrite lookup_cold_docs, C, lookup_remove_all, lookup_cold_docs. destruct (existsb (N.eqb k) ids); reflexivity.
      + destruct (update_meta_tiers s id m merge) as (_ & _ & C).
        rewrite !lookup_cold_docs. destruct (lookup id (cold s)) as [r|]; destruct C as [-> _]; cbn [option_map payload].
        * rewrite !lookup_put, lookup_cold_docs. destruct (N.eqb id k); reflexivity.
        * symmetry. apply lookup_cold_docs.
      + destruct (bulk_load_tiers c s docs) as (C & _).
        change (cold_docs ?x) with (docs_of (cold x)). rewrite C. apply ins_cold_refines. intros k0. reflexivity.
      + reflexivity.
  Qed.

  Definition no_hot_poke (o : op) : bool := match o with OPokeHot _ _ _ _ => false | _ => true end.

  Section Mirror.
    Variable R : hent -> crec -> Prop.
    (* what insert writes into the two tiers is related; the same change of metadata on both sides keeps
       the relation (update_metadata applies merge and replace to both tiers alike) *)
    Hypothesis R_ins : forall v m ver, R (mkH v m (ver, digest v)) (mkC v m ver).
    Hypothesis R_meta : forall h r (f : meta -> meta), R h r ->
      R (mkH (h_vec h) (f (h_meta h)) (h_tok h)) (mkC (c_vec r) (f (c_meta r)) (c_ver r)).

    (* a planted mirror entry must itself satisfy the relation *)
    Definition poke_ok (s : state) (o : op) : Prop :=
      match o with
      | OPokeHot id v m t => exists r, lookup id (cold s) = Some r /\ R (mkH v (meta_canon m) t) r
      | _ => True
      end.

    Lemma insert_mirrored : forall c s id v m, mirrored R s -> mirrored R (fst (insert digest valid c s id v m)).
    Proof.
      intros c s id v m F. destruct (insert_no_orphan c s id v m (mirrored_orphan R s F)) as (h1 & H1 & _ & C & H).
      intros k h. rewrite C, H.
      assert (F1 : lookup k h1 = Some h -> exists r, lookup k (cold s) = Some r /\ R h r).
      { destruct H1 as [->|[-> _]]; [discriminate|apply F]. }
      destruct (valid v); [|exact F1]. rewrite !lookup_put. destruct (N.eqb id k); [|exact F1].
      intros [= <-]. eexists. split; [reflexivity|apply R_ins].
    Qed.

    Lemma delete_mirrored : forall c s id, mirrored R s -> mirrored R (fst (delete c s id)).
    Proof.
      intros c s id. destruct (delete_tiers c s id) as (C & H & _).
      apply mirrored_shrink; [eapply hot_sub_remove, H|].
      intros k h. rewrite C, H, !lookup_remove. destruct (N.eqb id k); congruence.
    Qed.

    Lemma update_meta_mirrored : forall s id m merge, mirrored R s -> mirrored R (fst (update_meta s id m merge)).
    Proof.
      intros s id m merge F. destruct (update_meta_tiers s id m merge) as (_ & _ & T).
      destruct (lookup id (cold s)) as [r|] eqn:E; destruct T as [C H]; intros k h; rewrite C, H; [|apply F].
      destruct (lookup id (hot s)) as [h0|] eqn:Eh; rewrite !lookup_put;
        destruct (N.eqb_spec id k) as [<-|Hn]; try apply F; [|congruence].
      intros [= <-]. eexists. split; [reflexivity|]. destruct (F id h0 Eh) as (r0 & L & Rr).
      assert (r0 = r) by congruence. subst r0. apply (R_meta h0 r (fun x => apply_meta x m merge) Rr).
    Qed.

    (* the loaded ids lose their mirrors; the cold tier changes only at loaded ids *)
    Lemma bulk_load_mirrored : forall c s docs, mirrored R s -> mirrored R (fst (bulk_load valid c s docs)).
    Proof.
      intros c s docs. destruct (bulk_load_tiers c s docs) as (C & H & _).
      apply mirrored_shrink; [eapply hot_sub_remove_all, H|].
      intros k h. rewrite H, C, lookup_remove_all.
      destruct (existsb _ _) eqn:X; [discriminate|]. intros _. apply ins_cold_outside, X.
    Qed.

    Lemma step_mirrored : forall c s o, poke_ok s o -> mirrored R s -> mirrored R (fst (step c s o)).
    Proof.
      intros c s o G F. destruct (quiet_op o) eqn:Qo.
      { eapply mirrored_quiet; [apply (step_quiet c s o Qo (fun _ => mirrored_orphan R s F))|exact F]. }
      destruct o; try discriminate; cbn [Tiered.step]; rewrite ?fst_let.
      - apply insert_mirrored, F.
      - apply delete_mirrored, F.
      - apply batch_delete_mirrored, F.
      - apply update_meta_mirrored, F.
      - apply bulk_load_mirrored, F.
      - cbn [fst]. unfold poke_hot. intros k h. sproj. rewrite lookup_put.
        destruct (N.eqb_spec id k) as [<-|Hn]; [|apply F]. intros [= <-]. exact G.
    Qed.

    Lemma step_mirrored_api : forall c s o, no_hot_poke o = true -> mirrored R s -> mirrored R (fst (step c s o)).
    Proof. intros c s o G. apply step_mirrored. destruct o; try discriminate; exact I. Qed.

    Lemma run_mirrored : forall c ops s, forallb no_hot_poke ops = true -> mirrored R s -> mirrored R (run c s ops).
    Proof.
      unfold Tiered.run. induction ops as [|o r IH]; cbn; intros s G F; auto.
      apply andb_true_iff in G. destruct G as [G1 G2]. apply IH; auto. apply step_mirrored_api; auto.
    Qed.
  End Mirror.

  Theorem l1a_bound : forall c docs ops, caps_ok c -> l1_ok c (run c (init docs) ops).
  Proof.
    intros c docs ops Cc. unfold Tiered.run. apply fold_left_inv; [intros; apply step_l1_ok; auto|].
    unfold l1_ok, init. cbn. lia.
  Qed.

  (* guarded histories: a mirror poke may only target an id that exists in the cold tier *)
  Definition guard (s : state) (o : op) : bool :=
    match o with OPokeHot id _ _ _ => mem id (cold s) | _ => true end.
  Fixpoint run_guarded (c : config) (s : state) (ops : list op) : option state :=
    match ops with
    | [] => Some s
    | o :: r => if guard s o then run_guarded c (fst (step c s o)) r else None
    end.

  Lemma step_no_orphan : forall c s o, guard s o = true -> no_orphan s -> no_orphan (fst (step c s o)).
  Proof.
    intros c s o G NO. apply (mirrored_orphan (fun _ _ => True)), step_mirrored; auto using orphan_mirrored.
    destruct o; cbn in *; auto. apply mem_lookup in G. destruct (lookup id (cold s)) as [r|]; [eauto|congruence].
  Qed.

  Lemma init_no_orphan : forall docs, no_orphan (init docs).
  Proof. intros docs. apply (mirrored_orphan (fun _ _ => True)), mirrored_init. Qed.

  (* C04 over whole histories: orphans stay unreachable and the canonical store follows the specification *)
  Theorem run_guarded_refines : forall c ops s0 d0 s, no_orphan s0 -> lk_eq (cold_docs s0) d0 ->
    run_guarded c s0 ops = Some s ->
    no_orphan s /\ lk_eq (cold_docs s) (fold_left spec_step ops d0).
  Proof.
    induction ops as [|o r IH]; cbn; intros s0 d0 s NO E H.
    - inversion H; subst. auto.
    - destruct (guard s0 o) eqn:G; [|discriminate]. eapply IH; [apply step_no_orphan; eauto| |exact H].
      intros k. rewrite (step_refines c s0 o NO). apply spec_step_equiv, E.
  Qed.

  Definition is_maintenance (o : op) : bool :=
    match o with OFlush _ | OAudit | OTick => true | _ => false end.

  (* no stale mirror: after an API history without mirror pokes every hot-tier entry carries the CURRENT
     canonical token and payload of its id (needed by C06: hot k-NN candidates are live) *)
  Definition tok_fresh (h : hent) (r : crec) : Prop :=
    h_vec h = c_vec r /\ h_tok h = (c_ver r, digest (c_vec r)).

  Lemma run_tok_fresh : forall c docs ops, forallb no_hot_poke ops = true ->
    mirrored tok_fresh (run c (init docs) ops).
  Proof.
    intros c docs ops G. apply run_mirrored; [split; reflexivity| |exact G|apply mirrored_init].
    intros h r f [V T]. split; assumption.
  Qed.

  Lemma fresh_match : forall s id h r, lookup id (cold s) = Some r -> tok_fresh h r ->
    canon_state s id (h_vec h) (h_tok h) = CMatch.
  Proof.
    intros s id h r L [V T]. unfold Tiered.canon_state, cold_token. rewrite L, T, V. cbn [snd].
    rewrite (proj2 (tok_eqb_eq _ _) eq_refl), (proj2 (vec_eqb_eq _ _) eq_refl). reflexivity.
  Qed.
End Theorems.

Definition id_digest (v : vec) : dgst := v.
Lemma id_digest_inj : forall a b : vec, id_digest a = id_digest b -> a = b.
Proof. auto. Qed.
Definition all_valid (v : vec) : bool := true.
Definition dim4_valid (v : vec) : bool := Nat.eqb (length v) 4.
