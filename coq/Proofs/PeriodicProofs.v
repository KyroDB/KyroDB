From Coq Require Import List Arith NArith Bool Lia.
From Kyro Require Import Model.Periodic.
Import ListNotations.
Open Scope N_scope.

Definition PI (s : pst) : Prop := p_last s <= p_now s /\ Forall (fun x => p_last s <= x) (p_pending s).

Lemma PI_init t0 : PI (pinit t0).
Proof. split; cbn; [lia | constructor]. Qed.

Lemma PI_step iv s dt : PI s -> PI (pstep iv s dt).
Proof.
  intros [Hl Hp]. unfold pstep. destruct (due iv s (p_now s + dt)); split; cbn; try lia.
  - constructor.
  - apply Forall_app. split; [exact Hp | constructor; [lia | constructor]].
Qed.

Lemma PI_run iv evs : forall s, PI s -> PI (fold_left (pstep iv) evs s).
Proof. induction evs as [|e evs IH]; cbn; intros s H; [exact H | apply IH, PI_step, H]. Qed.

Lemma durable_mono_step iv s dt : (length (p_durable s) <= length (p_durable (pstep iv s dt)))%nat.
Proof. unfold pstep. destruct (due iv s (p_now s + dt)); cbn; rewrite ?app_length; lia. Qed.

Lemma durable_mono_run iv evs : forall s,
  (length (p_durable s) <= length (p_durable (fold_left (pstep iv) evs s)))%nat.
Proof.
  induction evs as [|e evs IH]; cbn; intros s; [lia |].
  eapply Nat.le_trans; [apply (durable_mono_step iv s e) | apply IH].
Qed.

Lemma acked_step iv s dt : acked (pstep iv s dt) = acked s ++ [p_now s + dt].
Proof.
  unfold acked, pstep. destruct (due iv s (p_now s + dt)); cbn.
  - rewrite app_nil_r, app_assoc. reflexivity.
  - rewrite app_assoc. reflexivity.
Qed.

Lemma acked_run iv evs : forall s, exists l,
  acked (fold_left (pstep iv) evs s) = acked s ++ l /\ length l = length evs.
Proof.
  induction evs as [|e evs IH]; cbn; intros s.
  - exists []. rewrite app_nil_r. auto.
  - destruct (IH (pstep iv s e)) as [l [Hl Hn]]. rewrite acked_step in Hl.
    exists ((p_now s + e) :: l). rewrite Hl, <- app_assoc. cbn. auto.
Qed.

Lemma now_step iv s dt : p_now (pstep iv s dt) = p_now s + dt.
Proof. unfold pstep. destruct (due iv s (p_now s + dt)); reflexivity. Qed.

(* The step that matters: an entry acknowledged at ti is covered by the first append that happens at
   least one interval later. *)
Lemma followed_step iv s i ti dj :
  PI s -> nth_error (acked s) i = Some ti -> ti + iv <= p_now s + dj ->
  (i < length (p_durable (pstep iv s dj)))%nat.
Proof.
  intros [Hl Hp] Hn Ht.
  destruct (Nat.lt_ge_cases i (length (p_durable s))) as [Hd|Hd].
  - eapply Nat.lt_le_trans; [exact Hd | apply durable_mono_step].
  - assert (Hi : (i < length (acked s))%nat) by (apply nth_error_Some; congruence).
    unfold acked in Hn, Hi. rewrite nth_error_app2 in Hn by exact Hd.
    apply nth_error_In in Hn. rewrite Forall_forall in Hp. specialize (Hp _ Hn).
    unfold pstep. assert (Hdue : due iv s (p_now s + dj) = true).
    { unfold due. apply orb_true_iff. right. apply N.leb_le. lia. }
    rewrite Hdue. cbn. rewrite app_length in Hi. rewrite !app_length. cbn. lia.
Qed.

Theorem periodic_followed_durable : forall iv t0 pre d mid dj post,
  p_now (prun iv t0 (pre ++ [d])) + iv <= p_now (prun iv t0 (pre ++ [d] ++ mid ++ [dj])) ->
  (length pre < length (p_durable (prun iv t0 (pre ++ [d] ++ mid ++ [dj] ++ post))))%nat.
Proof.
  intros iv t0 pre d mid dj post. unfold prun.
  rewrite !fold_left_app. cbn [fold_left].
  set (s0 := fold_left (pstep iv) pre (pinit t0)).
  set (si := pstep iv s0 d).
  set (s1 := fold_left (pstep iv) mid si).
  intros Ht. rewrite now_step in Ht.
  eapply Nat.lt_le_trans; [| apply durable_mono_run].
  apply (followed_step iv s1 (length pre) (p_now si) dj).
  - apply PI_run, PI_step, PI_run, PI_init.
  - destruct (acked_run iv mid si) as [l [Hl _]]. fold s1 in Hl. rewrite Hl.
    unfold si. rewrite acked_step.
    destruct (acked_run iv pre (pinit t0)) as [l0 [Hl0 Hn0]]. fold s0 in Hl0. cbn in Hl0.
    rewrite Hl0, <- app_assoc. rewrite nth_error_app2 by lia.
    rewrite Hn0, Nat.sub_diag. cbn. f_equal. symmetry. apply now_step.
  - exact Ht.
Qed.

(* interval 0: every append is synced at once *)
Lemma pending_zero_run : forall evs s, p_pending s = [] -> p_pending (fold_left (pstep 0) evs s) = [].
Proof. induction evs as [|e evs IH]; cbn; intros s Hs; [exact Hs | apply IH; reflexivity]. Qed.

(* The clause as the property states it - every entry acknowledged more than one interval before the
   power loss is durable - is FALSE of the model: nothing syncs an idle tail. *)
Definition periodic_clause (iv t0 : N) (evs : list N) (idle : N) : Prop :=
  let s := prun iv t0 evs in
  forall i ti, nth_error (acked s) i = Some ti -> ti + iv < p_now s + idle ->
               (i < length (p_durable s))%nat.

(* ... and it holds for every entry that is followed by an append at least one interval later
   (the recorded class is exactly the idle tail). *)
Example periodic_followed_nonvacuous :
  p_durable (prun 50 0 [10; 1; 60; 5]) = [10; 11; 71] /\ p_pending (prun 50 0 [10; 1; 60; 5]) = [76].
Proof. vm_compute. auto. Qed.
