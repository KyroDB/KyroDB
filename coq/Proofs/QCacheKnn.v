(* An executable exact k-NN for the inner-product metric that meets the oracle premises of
   C07_entry_valid: those premises are satisfiable. *)
From Coq Require Import QArith Qminmax List NArith ZArith Bool Arith Lqa Lia Sorting.Sorted.
From Kyro Require Import Model.QCache Proofs.ListFacts Proofs.QCacheProofs Proofs.QCacheInv Proofs.QCacheEngine.
Import ListNotations.
Open Scope Q_scope.

Definition ip_isd (q v : vec) (d : Q) : Prop := d = 1 - dot q v.

(* first binding of every id *)
Definition uniq (c : collection) : collection :=
  fold_right (fun p acc => (fst p, snd p) :: c_del acc (fst p)) [] c.

Fixpoint ins_sorted (x : result) (l : list result) : list result :=
  match l with
  | [] => [x]
  | y :: r => if Qleb (snd x) (snd y) then x :: y :: r else y :: ins_sorted x r
  end.

Definition isort (l : list result) : list result := fold_right ins_sorted [] l.

Definition ip_knn (c : collection) (q : vec) (k : nat) : list result :=
  firstn k (isort (map (fun p => (fst p, 1 - dot q (snd p))) (uniq c))).

Lemma in_c_del c i id v : In (id, v) (c_del c i) <-> In (id, v) c /\ id <> i.
Proof.
  induction c as [|[j w] c IH]; cbn [c_del In]; [tauto|].
  destruct (N.eqb j i) eqn:E.
  - apply N.eqb_eq in E. subst j. rewrite IH. split; [tauto|].
    intros [[H|H] Hn]; [inversion H; subst; contradiction|tauto].
  - apply N.eqb_neq in E. cbn [In]. rewrite IH. split; [|tauto].
    intros [H|H]; [inversion H; subst; tauto|tauto].
Qed.

Lemma uniq_spec c id v : In (id, v) (uniq c) <-> c_get c id = Some v.
Proof.
  induction c as [|[i w] c IH]; cbn [uniq fold_right c_get In fst snd]; [split; [tauto|discriminate]|].
  fold (uniq c). rewrite in_c_del, IH. destruct (N.eqb i id) eqn:E.
  - apply N.eqb_eq in E. subst i. split.
    + intros [H|[_ H]]; [inversion H; reflexivity|contradiction].
    + intro H. inversion H; subst. left. reflexivity.
  - apply N.eqb_neq in E. split.
    + intros [H|[H _]]; [inversion H; subst; contradiction|exact H].
    + intro H. right. split; [exact H|]. intro E'. subst. contradiction.
Qed.

Lemma ins_in x l y : In y (ins_sorted x l) <-> y = x \/ In y l.
Proof.
  induction l as [|z l IH]; cbn [ins_sorted In]; [intuition|].
  destruct (Qleb (snd x) (snd z)); cbn [In]; [intuition|]. rewrite IH. intuition.
Qed.

Lemma isort_in l y : In y (isort l) <-> In y l.
Proof.
  induction l as [|z l IH]; cbn [isort fold_right In]; [tauto|].
  fold (isort l). rewrite ins_in, IH. intuition.
Qed.

Lemma ins_sorted_ok x l : StronglySorted rle l -> StronglySorted rle (ins_sorted x l).
Proof.
  induction l as [|z l IH]; intro H; cbn [ins_sorted].
  - constructor; constructor.
  - inversion H as [|? ? Hs Hf]; subst. destruct (Qleb (snd x) (snd z)) eqn:E.
    + apply Qleb_iff in E. constructor; [exact H|]. constructor; [exact E|].
      rewrite Forall_forall in *. intros y Hy. specialize (Hf y Hy). unfold rle in *. lra.
    + apply Qleb_false in E. constructor; [apply IH; exact Hs|].
      rewrite Forall_forall in *. intros y Hy. apply ins_in in Hy. destruct Hy as [Hy|Hy].
      * subst y. unfold rle. lra.
      * apply Hf. exact Hy.
Qed.

Lemma isort_sorted l : StronglySorted rle (isort l).
Proof.
  induction l as [|z l IH]; cbn [isort fold_right]; [constructor|]. apply ins_sorted_ok. exact IH.
Qed.

Lemma ip_knn_live c q k id d :
  In (id, d) (ip_knn c q k) -> exists v, c_get c id = Some v /\ ip_isd q v d.
Proof.
  unfold ip_knn. intro H. apply in_firstn in H. apply (proj1 (isort_in _ _)) in H. apply in_map_iff in H.
  destruct H as [[i v] [E Hin]]. cbn [fst snd] in E. inversion E; subst.
  exists v. split; [apply uniq_spec; exact Hin|reflexivity].
Qed.

Lemma ip_knn_len c q k : (length (ip_knn c q k) <= k)%nat.
Proof. unfold ip_knn. apply firstn_le_length. Qed.

Lemma ip_knn_omit c q k id v :
  (1 <= k)%nat -> c_get c id = Some v -> ~ In id (map fst (ip_knn c q k)) ->
  length (ip_knn c q k) = k /\
  exists w, worst (ip_knn c q k) = Some w /\ dist_lt InnerProduct q v w = false.
Proof.
  unfold ip_knn. set (L := isort (map (fun p => (fst p, 1 - dot q (snd p))) (uniq c))).
  intros Hk Hv Hn.
  assert (HinL : In (id, 1 - dot q v) L).
  { unfold L. apply isort_in. apply in_map_iff. exists (id, v). split; [reflexivity|]. apply uniq_spec. exact Hv. }
  destruct (beyond_prefix L k id _ (isort_sorted _) Hk HinL Hn) as [Hlen [w [Ew Hw]]].
  split; [exact Hlen|]. exists w. split; [exact Ew|]. unfold dist_lt. apply Qltb_false. lra.
Qed.

Lemma ip_knn_sorted c q k : StronglySorted rle (ip_knn c q k).
Proof. unfold ip_knn. apply StronglySorted_firstn, isort_sorted. Qed.

Lemma ip_isd_lt q v d w : ip_isd q v d -> w <= d -> dist_lt InnerProduct q v w = false.
Proof. unfold ip_isd, dist_lt. intros E H. subst d. apply Qltb_false. lra. Qed.
