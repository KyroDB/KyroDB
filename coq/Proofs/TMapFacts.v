(* Facts about the association lists of Model/TMap.v and the decidable equalities of Model/Tiered.v. *)
From Coq Require Import List NArith ZArith Bool Arith Lia Sorted.
From Kyro Require Import Model.TMap Model.Tiered Proofs.ListFacts.
Import ListNotations.

Section MapFacts.
  Context {A : Type}.
  Implicit Types l : list (N * A).

  Lemma lookup_remove : forall k k' l, lookup k' (remove k l) = if N.eqb k k' then None else lookup k' l.
  Proof.
    induction l as [|[k0 a] r IH]; cbn [remove lookup]; [destruct (N.eqb k k'); reflexivity|].
    destruct (N.eqb_spec k0 k) as [->|Hn]; cbn [lookup]; rewrite IH; [destruct (N.eqb k k'); reflexivity|].
    destruct (N.eqb_spec k k') as [<-|]; [|reflexivity]. destruct (N.eqb_spec k0 k); [contradiction|reflexivity].
  Qed.

  Lemma lookup_put : forall k k' a l, lookup k' (put k a l) = if N.eqb k k' then Some a else lookup k' l.
  Proof. intros. unfold put. cbn [lookup]. rewrite lookup_remove. destruct (N.eqb k k'); reflexivity. Qed.

  Lemma length_remove_le : forall k l, length (remove k l) <= length l.
  Proof. induction l as [|[k0 a] r IH]; cbn; auto. destruct (N.eqb k0 k); cbn; lia. Qed.

  Lemma length_remove_lt : forall k l, lookup k l <> None -> length (remove k l) < length l.
  Proof.
    induction l as [|[k0 a] r IH]; cbn; intros H; [congruence|].
    destruct (N.eqb k0 k); cbn.
    - pose proof (length_remove_le k r). lia.
    - apply IH in H. lia.
  Qed.

  Lemma mem_lookup : forall k l, mem k l = true <-> lookup k l <> None.
  Proof. intros. unfold mem. destruct (lookup k l); split; intros; congruence. Qed.

  Lemma mem_keys : forall k l, existsb (N.eqb k) (map fst l) = mem k l.
  Proof.
    intros k l. unfold mem. induction l as [|[k0 a] r IH]; cbn; auto.
    rewrite (N.eqb_sym k k0). destruct (N.eqb k0 k); cbn; auto.
  Qed.

  Lemma in_lookup : forall k a l, In (k, a) l -> lookup k l <> None.
  Proof.
    induction l as [|[k0 a0] r IH]; cbn; intros H; [contradiction|].
    destruct (N.eqb_spec k0 k); [congruence|]. destruct H as [H|H]; auto. congruence.
  Qed.

  Lemma lookup_remove_all : forall ks k l,
    lookup k (remove_all ks l) = if existsb (N.eqb k) ks then None else lookup k l.
  Proof.
    unfold remove_all. induction ks as [|k0 ks IH]; cbn; intros; auto.
    rewrite IH, lookup_remove, (N.eqb_sym k k0).
    destruct (N.eqb k0 k); cbn; auto. destruct (existsb (N.eqb k) ks); auto.
  Qed.

  Lemma length_remove_all_le : forall ks l, length (remove_all ks l) <= length l.
  Proof.
    unfold remove_all. induction ks as [|k0 ks IH]; cbn; intros; auto.
    etransitivity; [apply IH|]. apply length_remove_le.
  Qed.
End MapFacts.

Lemma lookup_map : forall {A B} (f : A -> B) k (l : list (N * A)),
  lookup k (map (fun p => (fst p, f (snd p))) l) = option_map f (lookup k l).
Proof. induction l as [|[k0 a] r IH]; cbn; auto. destruct (N.eqb k0 k); auto. Qed.

Lemma existsb_ins_id : forall k x l, existsb (N.eqb k) (ins_id x l) = N.eqb k x || existsb (N.eqb k) l.
Proof.
  induction l as [|q r IH]; cbn; auto.
  destruct (N.eqb_spec x q) as [->|_]; cbn; [destruct (N.eqb k q); auto|].
  destruct (N.ltb x q); cbn; auto. rewrite IH. destruct (N.eqb k x), (N.eqb k q); auto.
Qed.

Lemma in_sort_dedup : forall k l, existsb (N.eqb k) (sort_dedup l) = existsb (N.eqb k) l.
Proof.
  unfold sort_dedup. induction l as [|x r IH]; cbn; auto. rewrite existsb_ins_id, IH. auto.
Qed.

Lemma ins_id_in : forall k x l, In x (ins_id k l) <-> x = k \/ In x l.
Proof.
  intros. rewrite <- !existsb_eqb_In, existsb_ins_id, orb_true_iff, N.eqb_eq. reflexivity.
Qed.

Lemma ins_id_sorted : forall k l, StronglySorted N.lt l -> StronglySorted N.lt (ins_id k l).
Proof.
  induction l as [|q r IH]; cbn; intros H.
  - constructor; constructor.
  - inversion H as [|? ? Hs Hf]; subst. destruct (N.eqb_spec k q) as [|E]; [exact H|].
    destruct (N.ltb_spec k q) as [E2|E2].
    + constructor; [exact H|]. constructor; [exact E2|].
      eapply Forall_impl; [|exact Hf]. intros a Ha. cbn in Ha. lia.
    + constructor; [apply IH; auto|]. apply Forall_forall. intros x Hx. apply ins_id_in in Hx.
      destruct Hx as [->|Hx]; [lia|]. rewrite Forall_forall in Hf. auto.
Qed.

Lemma sort_dedup_sorted : forall l, StronglySorted N.lt (sort_dedup l).
Proof.
  unfold sort_dedup. induction l as [|x r IH]; cbn; [constructor|]. apply ins_id_sorted. auto.
Qed.

Lemma sort_dedup_nodup : forall l, NoDup (sort_dedup l).
Proof. intros. apply sorted_lt_nodup, sort_dedup_sorted. Qed.

Lemma vec_eqb_eq : forall a b : vec, vec_eqb a b = true <-> a = b.
Proof.
  unfold vec_eqb. induction a as [|x r IH]; destruct b as [|y q]; cbn [list_eqb]; split; try congruence; intros H.
  - apply andb_true_iff in H as [H1 H2]. apply Z.eqb_eq in H1. apply IH in H2. congruence.
  - inversion H; subst. rewrite Z.eqb_refl. cbn. apply IH. reflexivity.
Qed.

Lemma tok_eqb_eq : forall a b : token, tok_eqb a b = true <-> a = b.
Proof.
  intros [v1 d1] [v2 d2]. unfold tok_eqb. cbn [fst snd]. rewrite andb_true_iff, N.eqb_eq, vec_eqb_eq.
  split; [intros [-> ->]; reflexivity | intros H; inversion H; auto].
Qed.
