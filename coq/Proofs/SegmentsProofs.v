(* SegmentsProofs.v — invariant of Model/Segments.v under every fault choice. *)
From Coq Require Import List NArith Bool Arith Lia.
From Kyro Require Import Model.Segments Proofs.ListFacts.
Import ListNotations.
Open Scope N_scope.

Fixpoint lastN (l : list N) : option N :=
  match l with
  | [] => None
  | [a] => Some a
  | _ :: r => lastN r
  end.

Definition recoverableP (s : st) (n : N) : Prop :=
  n <= snap s \/ exists f, In f (man s) /\ In f (files s) /\ In n (get (content s) f).

Record Inv (s : st) : Prop := {
  i_active : forall a, active s = Some a -> lastN (man s) = Some a;
  i_exist : forall f, In f (man s) -> In f (files s);
  i_nodup : NoDup (man s);
  i_durable : forall n, In n (log s) -> recoverableP s n;
  i_snap_hi : snap s <= hi s;
  i_log_hi : forall n, In n (log s) -> n <= hi s;
  i_captured : forall n, In n (log s) -> n <= snap s -> In n (captured s);
  i_content : forall f n, In n (get (content s) f) -> In n (log s)
}.

Lemma memN_In x l : memN x l = true <-> In x l.
Proof.
  induction l as [|y r IH]; cbn [memN In]; [split; [discriminate|tauto]|].
  rewrite orb_true_iff, N.eqb_eq, IH. split; intros [H|H]; auto.
Qed.

Lemma memN_false x l : memN x l = false <-> ~ In x l.
Proof.
  split.
  - intros H Hi. apply memN_In in Hi. congruence.
  - intros H. destruct (memN x l) eqn:E; [|reflexivity]. exfalso. apply H, memN_In, E.
Qed.

Lemma removeN_In x y l : In y (removeN x l) <-> In y l /\ y <> x.
Proof.
  induction l as [|z r IH]; cbn [removeN In]; [tauto|].
  destruct (N.eqb_spec x z) as [E|E].
  - rewrite IH. subst. split; [tauto|]. intros [[H|H] Hn]; [congruence|tauto].
  - cbn [In]. rewrite IH. split; [intros [H|H]; [subst; split; auto|tauto]|tauto].
Qed.

Lemma lastN_app l x : lastN (l ++ [x]) = Some x.
Proof.
  induction l as [|a r IH]; [reflexivity|].
  cbn [app lastN]. destruct (r ++ [x]) eqn:E; [destruct r; discriminate|]. exact IH.
Qed.

Lemma lastN_In l a : lastN l = Some a -> In a l.
Proof.
  induction l as [|x r IH]; [discriminate|].
  destruct r as [|y t]; cbn [lastN]; [intros H; inversion H; left; reflexivity|].
  intros H. right. apply IH. exact H.
Qed.

Lemma above_spec l : forall b h, above b l = Some h -> b <= h /\ forall x, In x l -> b < x /\ x <= h.
Proof.
  induction l as [|y r IH]; intros b h H; cbn [above] in H.
  - inversion H; subst. split; [lia|intros x []].
  - destruct (N.ltb_spec b y) as [Hl|Hl]; [|discriminate].
    destruct (IH _ _ H) as [H1 H2]. split; [lia|].
    intros x [Hx|Hx]; [subst; lia|]. destruct (H2 x Hx). lia.
Qed.

Lemma covered_spec L es : covered L es = true -> forall n, In n es -> n <= L.
Proof.
  unfold covered. rewrite forallb_forall. intros H n Hn. specialize (H n Hn).
  apply andb_true_iff in H. destruct H as [_ H]. apply N.leb_le in H. exact H.
Qed.

(* the last listed segment is kept; the others are kept or deleted by `covered` if their file exists *)
Lemma plan_compact_snoc L fs c m a :
  plan_compact L fs c (m ++ [a]) =
  (filter (fun s => memN s fs && negb (covered L (get c s))) m ++ [a],
   filter (fun s => memN s fs && covered L (get c s)) m).
Proof.
  induction m as [|s m IH]; [reflexivity|].
  cbn [app filter]. destruct (m ++ [a]) as [|y r] eqn:E; [destruct m; discriminate|].
  cbn [plan_compact]. cbn [plan_compact] in IH. rewrite IH.
  destruct (memN s fs), (covered L (get c s)); reflexivity.
Qed.

Lemma plan_compact_spec L fs c m k d : plan_compact L fs c m = (k, d) ->
  lastN k = lastN m /\
  (forall x, In x k -> In x m) /\
  (forall x, In x d -> covered L (get c x) = true) /\
  (forall x, In x m -> In x fs -> In x k \/ In x d) /\
  (NoDup m -> NoDup k /\ forall x, In x k -> ~ In x d).
Proof.
  destruct m as [|a m _] using rev_ind; intro H.
  { injection H as <- <-. repeat split; auto; try constructor; intros x []. }
  rewrite plan_compact_snoc in H. injection H as <- <-. rewrite !lastN_app.
  split; [reflexivity|]. split; [|split; [|split]].
  - intros x. rewrite !in_app_iff, filter_In. tauto.
  - intros x Hx. apply filter_In in Hx. destruct Hx as [_ Hx]. apply andb_true_iff in Hx. apply Hx.
  - intros x Hx Hf. apply memN_In in Hf. rewrite !in_app_iff, !filter_In, Hf in *.
    destruct (covered L (get c x)); cbn; tauto.
  - intros ND. pose proof (NoDup_remove_2 _ _ _ ND) as Ha. apply NoDup_remove_1 in ND.
    rewrite app_nil_r in *. split.
    + apply NoDup_snoc; [apply NoDup_filter; exact ND|]. rewrite filter_In. tauto.
    + intros x Hx Hd. apply filter_In in Hd. destruct Hd as [Hm Hd].
      apply in_app_iff in Hx. destruct Hx as [Hx|[<-|[]]]; [|exact (Ha Hm)].
      apply filter_In in Hx. destruct Hx as [_ Hx]. destruct (covered L (get c x)), (memN x fs); discriminate.
Qed.

Lemma unlink_all_sub d : forall fs unl x, In x (unlink_all fs d unl) -> In x fs.
Proof.
  induction d as [|s r IH]; intros fs unl x H; cbn [unlink_all] in H; [exact H|].
  destruct unl as [|[|] u]; try (apply IH in H; try apply removeN_In in H; tauto).
Qed.

Lemma unlink_all_keep d : forall fs unl x, In x fs -> ~ In x d -> In x (unlink_all fs d unl).
Proof.
  induction d as [|s r IH]; intros fs unl x H Hn; cbn [unlink_all]; [exact H|].
  assert (x <> s) by (intros ->; apply Hn; left; reflexivity).
  assert (~ In x r) by (intros Hx; apply Hn; right; exact Hx).
  destruct unl as [|[|] u]; apply IH; auto; apply removeN_In; auto.
Qed.

Lemma recoverableP_mono (s t : st) n :
  snap s <= snap t ->
  (forall f, In f (man s) -> In f (files s) -> In n (get (content s) f) ->
             n <= snap t \/ (In f (man t) /\ In f (files t) /\ In n (get (content t) f))) ->
  recoverableP s n -> recoverableP t n.
Proof.
  intros Hs Hf [H|(f & H1 & H2 & H3)]; [left; lia|].
  destruct (Hf f H1 H2 H3) as [H|H]; [left; exact H|right; exists f; exact H].
Qed.

Lemma Inv_init : Inv init.
Proof.
  constructor; cbn; try (intros; contradiction); try discriminate; try lia; try constructor.
Qed.

Lemma inv_add_file s f : Inv s -> Inv (add_file s f).
Proof.
  intros [Act Ex Nd Dur SH LH Cap Con].
  constructor; cbn [add_file man snap files content active hi log captured]; auto.
  - intros g Hg. apply in_or_app. left. auto.
  - intros n Hn. apply (recoverableP_mono s); cbn; auto; try lia.
    intros g G1 G2 G3. right. repeat split; auto. apply in_or_app. left. exact G2.
Qed.

Lemma inv_publish s fresh (a : option N) :
  Inv s -> ~ In fresh (files s) -> (a = None \/ a = Some fresh) ->
  Inv (set_active (upd_man (add_file s fresh) (man s ++ [fresh])) a).
Proof.
  intros [Act Ex Nd Dur SH LH Cap Con] Hf Ha.
  constructor; cbn [set_active upd_man add_file man snap files content active hi log captured]; auto.
  - intros b Hb. rewrite lastN_app. destruct Ha as [->| ->]; [discriminate|exact Hb].
  - intros g Hg. apply in_app_or in Hg. apply in_or_app. destruct Hg as [Hg|[<-|[]]]; [left; auto|right; left; reflexivity].
  - apply NoDup_snoc; [exact Nd|]. intros Hx. apply Hf. auto.
  - intros n Hn. apply (recoverableP_mono s); cbn; auto; try lia.
    intros g G1 G2 G3. right. repeat split; auto; apply in_or_app; left; assumption.
Qed.

Lemma inv_set_active_none s : Inv s -> Inv (set_active s None).
Proof.
  intros [Act Ex Nd Dur SH LH Cap Con].
  constructor; cbn [set_active man snap files content active hi log captured]; auto. discriminate.
Qed.

(* only i_exist and i_durable look at the files, and only at those the MANIFEST lists *)
Lemma inv_set_files s fs : Inv s -> (forall f, In f (man s) -> In f fs) -> Inv (set_files s fs).
Proof.
  intros [Act Ex Nd Dur SH LH Cap Con] H.
  constructor; cbn [set_files man snap files content active hi log captured]; auto.
  intros n Hn. destruct (Dur n Hn) as [|(f & F1 & F2 & F3)]; [now left|].
  right. exists f. cbn. auto.
Qed.

Lemma inv_append s a seqs h :
  Inv s -> active s = Some a -> above (hi s) seqs = Some h ->
  Inv {| man := man s; snap := snap s; files := files s;
         content := (a, get (content s) a ++ seqs) :: content s; active := active s;
         hi := h; log := log s ++ seqs; captured := captured s |}.
Proof.
  intros [Act Ex Nd Dur SH LH Cap Con] Ha Hab. destruct (above_spec _ _ _ Hab) as [Hh Hs].
  assert (Hget : forall f n, In n (get (content s) f) ->
                 In n (get ((a, get (content s) a ++ seqs) :: content s) f)).
  { intros f n Hn. cbn [get]. destruct (N.eqb_spec a f) as [->|]; [apply in_or_app; left|]; exact Hn. }
  constructor; cbn [man snap files content active hi log captured]; auto.
  - intros n Hn. apply in_app_or in Hn. destruct Hn as [Hn|Hn].
    + destruct (Dur n Hn) as [H|(f & F1 & F2 & F3)]; [left; exact H|].
      right. exists f. cbn [man files content]. auto.
    + right. exists a. cbn [man files content].
      pose proof (lastN_In _ _ (Act a Ha)) as Hin. repeat split; auto.
      cbn [get]. rewrite N.eqb_refl. apply in_or_app. right. exact Hn.
  - lia.
  - intros n Hn. apply in_app_or in Hn. destruct Hn as [Hn|Hn]; [specialize (LH n Hn); lia|destruct (Hs n Hn); lia].
  - intros n Hn Hle. apply in_app_or in Hn. destruct Hn as [Hn|Hn]; [auto|]. destruct (Hs n Hn). lia.
  - intros f n Hn. cbn [get] in Hn. apply in_or_app. destruct (N.eqb_spec a f) as [->|].
    + apply in_app_or in Hn. destruct Hn as [Hn|Hn]; [left; eauto|right; exact Hn].
    + left. eauto.
Qed.

Lemma inv_bump s L : Inv s -> hi s <= L -> Inv (bump s L).
Proof.
  intros [Act Ex Nd Dur SH LH Cap Con] HL.
  constructor; cbn [bump man snap files content active hi log captured]; auto.
  - lia.
  - intros n Hn. specialize (LH n Hn). lia.
Qed.

Lemma inv_commit s L : Inv s -> hi s <= L -> snap s <= L -> Inv (commit s L).
Proof.
  intros [Act Ex Nd Dur SH LH Cap Con] HL HS.
  constructor; cbn [commit man snap files content active hi log captured]; auto.
  - intros n Hn. destruct (Dur n Hn) as [H|H]; [left; cbn; lia|right; exact H].
  - lia.
  - intros n Hn. specialize (LH n Hn). lia.
Qed.

Lemma inv_compacted s L keep del unl :
  Inv s -> snap s = L -> plan_compact L (files s) (content s) (man s) = (keep, del) ->
  Inv (upd_man s keep) /\ Inv (set_files (upd_man s keep) (unlink_all (files (upd_man s keep)) del unl)).
Proof.
  intros [Act Ex Nd Dur SH LH Cap Con] HL E.
  destruct (plan_compact_spec _ _ _ _ _ _ E) as (Hlast & Hsub & Hcov & Htot & Hnd).
  destruct (Hnd Nd) as [Nk Ndisj].
  assert (Ik : Inv (upd_man s keep)).
  { constructor; cbn [upd_man man snap files content active hi log captured]; auto.
    - intros a Ha. rewrite Hlast. auto.
    - intros n Hn. destruct (Dur n Hn) as [H|(f & F1 & F2 & F3)]; [left; exact H|].
      destruct (Htot f F1 F2) as [Hk|Hd]; [right; exists f; auto|].
      left. cbn [upd_man snap]. rewrite HL. exact (covered_spec _ _ (Hcov f Hd) n F3). }
  split; [exact Ik|]. apply inv_set_files; [exact Ik|].
  intros f Hf. apply unlink_all_keep; auto.
Qed.

Lemma mstep_inv s m s' : Inv s -> mstep s m = Some s' -> Inv s'.
Proof.
  intros I H. destruct m as [seqs | fresh c v | L saves unl | fresh c v | ]; cbn [mstep] in H.
  - destruct (active s) as [a|] eqn:Ha; [|discriminate].
    destruct (above (hi s) seqs) as [h|] eqn:Hab; [|discriminate].
    inversion H; subst; clear H. rewrite <- Ha. apply inv_append; auto.
  - destruct (active s) as [a|] eqn:Ha; [|discriminate].
    destruct (memN fresh (files s)) eqn:Hm; [discriminate|]. apply memN_false in Hm.
    destruct c, v; cbn [create_and_publish] in H; inversion H; subst; clear H;
      try exact I; try (apply inv_add_file; exact I);
      apply inv_publish; auto.
  - destruct (N.ltb_spec L (hi s)) as [|Hhi]; [discriminate|].
    destruct (N.ltb_spec L (snap s)) as [|Hsn]; [inversion H; subst; exact I|].
    destruct saves as [|[| |] rest]; [discriminate| | |].
    + pose proof (inv_commit s L I Hhi Hsn) as I1.
      destruct (plan_compact L (files (commit s L)) (content (commit s L)) (man (commit s L))) as [keep del] eqn:E.
      destruct (inv_compacted (commit s L) L keep del unl I1 eq_refl E) as [Ik Iu].
      destruct del as [|d0 dr].
      * destruct rest as [|[| |] rest2]; inversion H; subst; assumption.
      * destruct rest as [|[| |] rest2]; [discriminate| | |]; try (inversion H; subst; assumption).
        destruct rest2; [discriminate|]. inversion H; subst. exact Iu.
    + inversion H; subst. apply inv_bump; assumption.
    + inversion H; subst. apply inv_commit; assumption.
  - (* `active s` is None: the published state is an instance of inv_publish *)
    destruct s as [mn sn fl ct ac h lg cp]; cbn [active files] in *.
    destruct ac as [a|]; [discriminate|].
    destruct (memN fresh fl) eqn:Hm; [discriminate|]. apply memN_false in Hm.
    destruct c, v; cbn [create_and_publish] in H; inversion H; subst; clear H;
      try exact I; try (apply inv_add_file; exact I).
    + exact (inv_publish _ fresh (Some fresh) I Hm (or_intror eq_refl)).
    + exact (inv_publish _ fresh None I Hm (or_introl eq_refl)).
  - inversion H; subst. apply inv_set_active_none; exact I.
Qed.

Theorem mrun_inv ms : forall s s', Inv s -> mrun s ms = Some s' -> Inv s'.
Proof.
  induction ms as [|m r IH]; intros s s' I H; cbn [mrun] in H.
  - inversion H; subst. exact I.
  - destruct (mstep s m) as [t|] eqn:E; [|discriminate].
    eapply IH; [eapply mstep_inv; eauto|exact H].
Qed.

Lemma recoverable_reflect s n : recoverableP s n -> recoverable s n = true.
Proof.
  intros [H|(f & F1 & F2 & F3)]; unfold recoverable; apply orb_true_iff.
  - left. apply N.leb_le. exact H.
  - right. unfold in_listed_file. apply existsb_exists. exists f. split; [exact F1|].
    apply andb_true_iff. split; apply memN_In; assumption.
Qed.

(* the behaviour before fix db1490c: a concrete loss *)
Definition old_loss_trace : list micro :=
  [ MStart 10 COk VOk; MAppend [1]; MRotate 11 COk VPost;      (* dir fsync of the MANIFEST save fails *)
    MSnapshot 1 [VOk; VOk; VOk] [true];                          (* compaction unlinks segment 10 *)
    MAppend [2] ].                                               (* acknowledged, written to the unlinked file *)

Lemma new_rotation_keeps_it :
  exists s', mrun init old_loss_trace = Some s' /\ recoverable s' 2 = true /\ active s' = Some 11.
Proof. eexists. vm_compute. repeat split. Qed.
