(* Proofs about Model/Locks.v: the rank discipline excludes deadlock, for any number of threads and
   any schedule (DESIGN.md §3 C08, §3.2 "Locks").

   Proof idea.  `tinv` is a per-thread invariant (the rest of the thread's program is well bracketed
   and rank increasing relative to what the thread holds now); only the thread's own steps touch it.
   In a state where no thread can move, every unfinished thread t waits for a lock l_t whose rank
   exceeds the rank of everything t holds.  Whatever blocks t, some thread u really holds l_t (if
   the blocker has only claimed the WRITER bit of l_t, it is itself waiting for a reader of l_t to
   leave, and that reader is u).  u is unfinished and blocked too, so rank l_u > rank l_t.  An
   unfinished thread with maximal awaited rank therefore cannot exist. *)
From Coq Require Import List NArith Bool Arith Lia.
From Kyro Require Import Model.Locks.
Import ListNotations.

Local Arguments avail : simpl never.
Local Arguments try_avail : simpl never.
Local Arguments readers : simpl never.
Local Arguments wbit : simpl never.
Local Arguments upg : simpl never.
Local Arguments held_any : simpl never.

Definition erase (hs : list hold) : sheld := map (fun h => (h_lock h, h_mode h)) hs.

Local Arguments erase : simpl never.

Lemma erase_remove : forall l hs, erase (remove_hold l hs) = sremove l (erase hs).
Proof.
  induction hs as [|h r IH]; [reflexivity|]. unfold erase in *. cbn.
  destruct (N.eqb (h_lock h) l); cbn; [reflexivity|]. f_equal. exact IH.
Qed.

Lemma sfind_erase : forall l hs, sfind l (erase hs) = option_map h_mode (find_hold l hs).
Proof.
  induction hs as [|h r IH]; [reflexivity|]. unfold erase in *. cbn.
  destruct (N.eqb (h_lock h) l); cbn; [reflexivity|]. exact IH.
Qed.

Definition tinv (rank : lock -> nat) (t : thread) : Prop :=
  let h := erase (t_held t) in
  if t_pend t
  then exists l r, (t_prog t = Acq l Write :: r \/ t_prog t = Upgrade l :: r) /\
                   gt_all rank l h = true /\
                   wb ((l, Write) :: h) r = true /\ ri rank ((l, Write) :: h) r = true
  else wb h (t_prog t) = true /\ ri rank h (t_prog t) = true.

Lemma tinv_init : forall rank p,
  well_bracketed p -> rank_increasing rank p -> tinv rank (mkThread p [] false).
Proof. intros rank p Hw Hr. unfold tinv; cbn. split; assumption. Qed.

(* the second half of a two-step write acquisition: the thread has claimed the WRITER bit of l and
   completes as soon as no reader of l is left *)
Lemma tstep_pending : forall rank st p hs, tinv rank (mkThread p hs true) ->
  exists l r, (p = Acq l Write :: r \/ p = Upgrade l :: r) /\ gt_all rank l (erase hs) = true /\
    wb ((l, Write) :: erase hs) r = true /\ ri rank ((l, Write) :: erase hs) r = true /\
    tstep st (mkThread p hs true) = if readers st l then None else Some (mkThread r (mkHold l Write true :: hs) false).
Proof.
  intros rank st p hs Hinv. unfold tinv in Hinv. cbn in Hinv.
  destruct Hinv as (l & r & Hp & Hgt & Hwb & Hri). exists l, r.
  repeat (split; [assumption|]). unfold tstep. cbn. destruct Hp as [-> | ->]; reflexivity.
Qed.

(* a step of a thread that has claimed nothing: it finishes its head instruction, the held set
   following `supd`, or (a write request that may have to wait) claims the WRITER bit and keeps it *)
Lemma tstep_shape : forall st i r hs t',
  tstep st (mkThread (i :: r) hs false) = Some t' -> wb_pre (erase hs) i = true ->
  (exists hs', t' = mkThread r hs' false /\ erase hs' = supd (erase hs) i) \/
  (exists l hs', t' = mkThread (i :: r) hs' true /\ (l, Write) :: erase hs' = supd (erase hs) i /\
                 (i = Acq l Write \/ i = Upgrade l) /\
                 forall rank, ri_pre rank (erase hs) i = gt_all rank l (erase hs')).
Proof.
  intros st i r hs t' Hstep Hpre.
  destruct i as [l m | l m | l | l m | l]; unfold tstep in Hstep; cbn in Hstep.
  - destruct m; cbn in Hstep; (destruct (avail st l _); [|discriminate]); inversion Hstep; subst t'.
    1, 2, 4: (left; eexists; split; reflexivity).
    right. exists l, hs. repeat split; auto.
  - left. inversion Hstep. eexists; split; reflexivity.
  - cbn [wb_pre] in Hpre. rewrite sfind_erase in Hpre.
    destruct (find_hold l hs) as [h0|]; [|discriminate]. destruct (h_real h0); inversion Hstep; subst t'.
    + right. exists l, (remove_hold l hs). rewrite erase_remove. repeat split; auto.
    + left. eexists. split; [reflexivity|]. cbn [supd]. rewrite <- erase_remove. reflexivity.
  - cbn [wb_pre] in Hpre. rewrite sfind_erase in Hpre.
    destruct (find_hold l hs) as [h0|]; [|discriminate]. inversion Hstep; subst t'.
    left. eexists. split; [reflexivity|]. cbn [supd]. rewrite <- erase_remove. reflexivity.
  - left. inversion Hstep. eexists. split; [reflexivity|]. apply erase_remove.
Qed.

Lemma tinv_step : forall rank st t t', tinv rank t -> tstep st t = Some t' -> tinv rank t'.
Proof.
  intros rank st [p hs pd] t' Hinv Hstep.
  destruct pd; [|unfold tinv in Hinv; cbn in Hinv].
  - destruct (tstep_pending rank st p hs Hinv) as (l & r & _ & Hgt & Hwb & Hri & E).
    rewrite E in Hstep. destruct (readers st l); [discriminate|].
    inversion Hstep; subst t'; unfold tinv; cbn; split; assumption.
  - destruct Hinv as [Hwb Hri].
    destruct p as [|i r]; [discriminate|].
    change (wb_pre (erase hs) i && wb (supd (erase hs) i) r = true) in Hwb.
    change (ri_pre rank (erase hs) i && ri rank (supd (erase hs) i) r = true) in Hri.
    apply andb_true_iff in Hwb. destruct Hwb as [Hpre Hwb].
    apply andb_true_iff in Hri. destruct Hri as [Hrpre Hri].
    destruct (tstep_shape st i r hs t' Hstep Hpre) as [(hs' & -> & E)|(l & hs' & -> & E & Hi & Hg)];
      unfold tinv; cbn [t_pend t_held t_prog].
    + rewrite E. split; assumption.
    + exists l, r. rewrite E, <- Hg. repeat split; try assumption.
      destruct Hi as [-> | ->]; [left|right]; reflexivity.
Qed.

Lemma Forall_replace_nth : forall {A} (P : A -> Prop) n x l,
  Forall P l -> P x -> Forall P (replace_nth n x l).
Proof.
  intros A P n x l; revert n. induction l as [|a r IH]; intros n Hl Hx; destruct n; cbn; auto.
  - inversion Hl; subst. constructor; assumption.
  - inversion Hl; subst. constructor; auto.
Qed.

Lemma tinv_thread_step : forall rank st tid st',
  Forall (tinv rank) st -> thread_step st tid = Some st' -> Forall (tinv rank) st'.
Proof.
  intros rank st tid st' Hall Hs. unfold thread_step in Hs.
  destruct (nth_error st tid) as [t|] eqn:Hn; [|discriminate].
  destruct (tstep st t) as [t'|] eqn:Ht; [|discriminate].
  inversion Hs; subst st'. apply Forall_replace_nth; [assumption|].
  eapply tinv_step; [|exact Ht].
  rewrite Forall_forall in Hall. apply Hall. eapply nth_error_In; exact Hn.
Qed.

Lemma tinv_run : forall rank sched st st',
  Forall (tinv rank) st -> run st sched = Some st' -> Forall (tinv rank) st'.
Proof.
  induction sched as [|tid r IH]; intros st st' Hall Hr; cbn in Hr.
  - inversion Hr; subst; assumption.
  - destruct (thread_step st tid) as [st1|] eqn:Hs; [|discriminate].
    eapply IH; [|exact Hr]. eapply tinv_thread_step; eassumption.
Qed.

Definition await (rank : lock -> nat) (t : thread) : nat :=
  match t_prog t with
  | Acq l _ :: _ => rank l
  | Upgrade l :: _ => rank l
  | _ => 0
  end.

Definition holder (st : state) (l : lock) : Prop :=
  exists u h, In u st /\ In h (t_held u) /\ h_lock h = l /\ h_real h = true.

Lemma holds_p_holder : forall p st l u, In u st -> holds_p p l u = true -> holder st l.
Proof.
  intros p st l u Hu Hh. unfold holds_p in Hh. apply existsb_exists in Hh. destruct Hh as (h & Hin & Hc).
  apply andb_true_iff in Hc as [Hc _]. apply andb_true_iff in Hc as [Hl Hr].
  exists u, h. repeat split; try assumption. now apply N.eqb_eq.
Qed.

Lemma existsb_holder : forall p st l, existsb (holds_p p l) st = true -> holder st l.
Proof. intros p st l H. apply existsb_exists in H as (u & Hu & Hh). eapply holds_p_holder; eauto. Qed.

Lemma gt_all_held : forall rank l hs h,
  gt_all rank l (erase hs) = true -> In h hs -> rank (h_lock h) < rank l.
Proof.
  intros rank l hs h Hg Hin. unfold gt_all in Hg. rewrite forallb_forall in Hg.
  specialize (Hg (h_lock h, h_mode h)). cbn in Hg. apply Nat.ltb_lt. apply Hg.
  unfold erase. apply in_map_iff. exists h. split; [reflexivity|assumption].
Qed.

(* a thread that has claimed the WRITER bit of l and cannot move is waiting for a reader of l *)
Lemma pending_blocked : forall rank st t l,
  tinv rank t -> pending_on l t = true -> tstep st t = None -> readers st l = true.
Proof.
  intros rank st [p hs pd] l Hinv Hp Hb. unfold pending_on in Hp; cbn in Hp.
  apply andb_true_iff in Hp. destruct Hp as [Hpd Hhead]. subst pd.
  destruct (tstep_pending rank st p hs Hinv) as (l' & r & Hq & _ & _ & _ & E).
  assert (l' = l) by (destruct Hq as [-> | ->]; apply N.eqb_eq; exact Hhead). subst l'.
  rewrite E in Hb. destruct (readers st l); [reflexivity|discriminate].
Qed.

Lemma avail_false : forall st l m, avail st l m = false ->
  wbit st l = true \/ upg st l = true \/ readers st l = true \/ held_any st l = true.
Proof.
  intros st l m. unfold avail.
  destruct m, (wbit st l), (upg st l), (held_any st l); cbn; intros; try discriminate; auto.
Qed.

(* a thread that has claimed nothing is blocked only at an `Acq`, of a lock that is not available *)
Lemma tstep_blocked : forall st i r hs, tstep st (mkThread (i :: r) hs false) = None ->
  exists l m, i = Acq l m /\ avail st l m = false.
Proof.
  intros st i r hs Hb. destruct i as [l m | l m | l | l m | l]; unfold tstep in Hb; cbn in Hb; try discriminate.
  - exists l, m. split; [reflexivity|]. destruct m; cbn in Hb; destruct (avail st l _); (discriminate || reflexivity).
  - destruct (find_hold l hs) as [h0|]; [destruct (h_real h0)|]; discriminate.
  - destruct (find_hold l hs); discriminate.
Qed.

Lemma blocked_awaits : forall rank st t,
  tinv rank t -> tstep st t = None -> t_prog t <> [] ->
  (forall h, In h (t_held t) -> rank (h_lock h) < await rank t) /\
  exists l, await rank t = rank l /\
            (wbit st l = true \/ upg st l = true \/ readers st l = true \/ held_any st l = true).
Proof.
  intros rank st [p hs pd] Hinv Hb Hne. cbn in Hne.
  destruct pd; [|unfold tinv in Hinv; cbn in Hinv].
  - destruct (tstep_pending rank st p hs Hinv) as (l & r & Hq & Hgt & _ & _ & E).
    rewrite E in Hb. destruct (readers st l) eqn:Hr; [|discriminate].
    assert (Haw : await rank (mkThread p hs true) = rank l) by (destruct Hq as [-> | ->]; reflexivity).
    split; [intros h Hin; rewrite Haw; eapply gt_all_held; eassumption
           | exists l; split; [exact Haw | right; right; left; exact Hr]].
  - destruct Hinv as [_ Hri]. destruct p as [|i r]; [congruence|].
    destruct (tstep_blocked st i r hs Hb) as (l & m & -> & E).
    cbn in Hri. apply andb_true_iff in Hri as [Hgt _].
    split; [intros h Hin; eapply gt_all_held; eassumption|].
    exists l. split; [reflexivity|exact (avail_false _ _ _ E)].
Qed.

Lemma holder_of_blocker : forall rank st l,
  Forall (tinv rank) st -> (forall u, In u st -> tstep st u = None) ->
  (wbit st l = true \/ upg st l = true \/ readers st l = true \/ held_any st l = true) ->
  holder st l.
Proof.
  intros rank st l Hinv Hall [Hw | [Hu | [Hr | Ha]]];
    try (eapply existsb_holder; eassumption).
  unfold wbit in Hw. apply existsb_exists in Hw. destruct Hw as (u & Hin & Hc).
  apply orb_true_iff in Hc. destruct Hc as [Hc | Hc].
  - eapply holds_p_holder; eassumption.
  - (* u has only claimed the WRITER bit: it waits for a reader, and that reader holds l *)
    assert (Hrd : readers st l = true).
    { eapply pending_blocked; [|exact Hc|apply Hall; assumption].
      rewrite Forall_forall in Hinv. apply Hinv. exact Hin. }
    eapply existsb_holder. exact Hrd.
Qed.

Lemma holder_not_done : forall rank u h, tinv rank u -> In h (t_held u) -> t_prog u <> [].
Proof.
  intros rank [p hs pd] h Hinv Hin. unfold tinv in Hinv; cbn in *.
  destruct pd.
  - destruct Hinv as (l & r & [Hp | Hp] & _); subst p; discriminate.
  - destruct Hinv as [Hwb _]. intros ->. cbn in Hwb.
    destruct hs; [contradiction|]. cbn in Hwb. discriminate.
Qed.

Lemma escalate : forall rank st t,
  Forall (tinv rank) st -> (forall u, In u st -> tstep st u = None) ->
  In t st -> t_prog t <> [] ->
  exists u, In u st /\ t_prog u <> [] /\ await rank t < await rank u.
Proof.
  intros rank st t Hinv Hall Hin Hne.
  assert (Hti : forall u, In u st -> tinv rank u) by (rewrite Forall_forall in Hinv; exact Hinv).
  destruct (blocked_awaits rank st t (Hti t Hin) (Hall t Hin) Hne) as [_ (l & Haw & Hcause)].
  destruct (holder_of_blocker rank st l Hinv Hall Hcause) as (u & h & Hu & Hh & Hl & _).
  assert (Hune : t_prog u <> []) by (eapply holder_not_done; [apply Hti; exact Hu | exact Hh]).
  destruct (blocked_awaits rank st u (Hti u Hu) (Hall u Hu) Hune) as [Hheld _].
  exists u. repeat split; try assumption.
  rewrite Haw, <- Hl. apply Hheld. exact Hh.
Qed.

(* in a stuck state the awaited ranks of unfinished threads are unbounded: impossible *)
Lemma climb : forall rank st, Forall (tinv rank) st -> (forall u, In u st -> tstep st u = None) ->
  forall n t, In t st -> t_prog t <> [] -> exists u, In u st /\ t_prog u <> [] /\ n <= await rank u.
Proof.
  intros rank st Hinv Hall. induction n as [|n IH]; intros t Hin Hne.
  - exists t. repeat split; auto. lia.
  - destruct (IH t Hin Hne) as (u & Hu & Hun & Hle).
    destruct (escalate rank st u Hinv Hall Hu Hun) as (w & Hw & Hwn & Hlt). exists w. repeat split; auto. lia.
Qed.

Lemma stuck_all_done : forall rank st,
  Forall (tinv rank) st -> (forall u, In u st -> tstep st u = None) -> all_done st = true.
Proof.
  intros rank st Hinv Hall. apply forallb_forall. intros t Hin. unfold done.
  destruct (t_prog t) eqn:Hp; [reflexivity|exfalso].
  destruct (climb rank st Hinv Hall (S (list_max (map (await rank) st))) t Hin) as (u & Hu & _ & Hle); [congruence|].
  assert (await rank u <= list_max (map (await rank) st)); [|lia].
  pose proof (proj1 (list_max_le (map (await rank) st) _) (le_n _)) as Hf.
  rewrite Forall_forall in Hf. apply Hf. apply in_map. exact Hu.
Qed.

Lemma step_or_stuck : forall st ts,
  (exists t t', In t ts /\ tstep st t = Some t') \/ (forall t, In t ts -> tstep st t = None).
Proof.
  intros st ts. induction ts as [|a r IH].
  - right. intros t [].
  - destruct (tstep st a) as [a'|] eqn:E.
    + left. exists a, a'. split; [now left | assumption].
    + destruct IH as [(t & t' & Hin & Hs) | Hnone].
      * left. exists t, t'. split; [now right | assumption].
      * right. intros t [<- | Hin]; [assumption | now apply Hnone].
Qed.

Lemma tinv_exec : forall rank ps sched st, Forall well_bracketed ps -> Forall (rank_increasing rank) ps ->
  exec ps sched = Some st -> Forall (tinv rank) st.
Proof.
  intros rank ps sched st Hwb Hri. apply tinv_run. unfold init. apply Forall_map.
  rewrite Forall_forall in *. intros p Hp. apply tinv_init; auto.
Qed.

Lemma progress : forall rank st, Forall (tinv rank) st -> all_done st = false ->
  exists tid t t', nth_error st tid = Some t /\ tstep st t = Some t'.
Proof.
  intros rank st Hinv Hnd. destruct (step_or_stuck st st) as [(t & t' & Hin & Hs) | Hnone].
  - destruct (In_nth_error _ _ Hin) as [tid Htid]. eauto.
  - rewrite (stuck_all_done rank st Hinv Hnone) in Hnd. discriminate.
Qed.

Lemma progress_step : forall rank st, Forall (tinv rank) st -> all_done st = false ->
  exists tid st', thread_step st tid = Some st'.
Proof.
  intros rank st Hinv Hnd. destruct (progress rank st Hinv Hnd) as (tid & t & t' & Htid & Hs).
  exists tid, (replace_nth tid t' st). unfold thread_step. now rewrite Htid, Hs.
Qed.

Lemma all_ok_Forall : forall rank ps, all_ok rank ps = true ->
  Forall well_bracketed ps /\ Forall (rank_increasing rank) ps.
Proof.
  intros rank ps H. unfold all_ok in H. rewrite forallb_forall in H.
  split; apply Forall_forall; intros p Hp; specialize (H p Hp); unfold prog_ok in H;
    apply andb_true_iff in H; destruct H; assumption.
Qed.

Theorem deadlock_free_of_check : forall rank ps, all_ok rank ps = true -> deadlock_free ps.
Proof.
  intros rank ps H sched st Hex Hnd. destruct (all_ok_Forall rank ps H) as [Hw Hr].
  apply (progress_step rank); [eapply tinv_exec; eassumption|exact Hnd].
Qed.

(* a call that passes the check ends holding nothing, so the check of what follows starts afresh *)
Lemma prog_ok_app : forall rank p q h, wb h p = true -> ri rank h p = true ->
  wb h (p ++ q) = wb [] q /\ ri rank h (p ++ q) = ri rank [] q.
Proof.
  induction p as [|i r IH]; intros q h Hw Hr; cbn in *.
  - destruct h; [auto | discriminate].
  - apply andb_true_iff in Hw as [Hw1 Hw]. apply andb_true_iff in Hr as [Hr1 Hr].
    rewrite Hw1, Hr1. cbn. apply IH; assumption.
Qed.

Lemma client_ok : forall rank calls p,
  all_ok rank calls = true -> client_of calls p -> prog_ok rank p = true.
Proof.
  intros rank calls p Hok (cs & Hcs & ->).
  unfold all_ok in Hok. rewrite forallb_forall in Hok.
  induction cs as [|c r IH]; [reflexivity|].
  inversion Hcs; subst. specialize (Hok c H1). unfold prog_ok in *.
  apply andb_true_iff in Hok. destruct Hok as [Hw Hr].
  cbn [concat]. destruct (prog_ok_app rank c (concat r) [] Hw Hr) as [-> ->].
  apply IH. assumption.
Qed.

Theorem deadlock_free_family_of_check : forall rank calls,
  all_ok rank calls = true -> deadlock_free_family calls.
Proof.
  intros rank calls Hok threads Hth.
  apply deadlock_free_of_check with (rank := rank).
  unfold all_ok. apply forallb_forall. intros p Hp.
  rewrite Forall_forall in Hth. eapply client_ok; [exact Hok | apply Hth; exact Hp].
Qed.

(* steps left: two per instruction, one less once the WRITER bit has been claimed *)
Definition tmeasure (t : thread) : nat := 2 * length (t_prog t) - (if t_pend t then 1 else 0).
Definition measure (st : state) : nat := fold_right (fun t acc => tmeasure t + acc) 0 st.

Lemma tstep_measure : forall rank st t t', tinv rank t -> tstep st t = Some t' -> tmeasure t' < tmeasure t.
Proof.
  intros rank st [p hs pd] t' Hinv Hs. unfold tmeasure.
  destruct pd.
  - destruct (tstep_pending rank st p hs Hinv) as (l & r & Hq & _ & _ & _ & E).
    rewrite E in Hs. destruct (readers st l); [discriminate|]. inversion Hs; subst t'.
    destruct Hq as [-> | ->]; cbn; lia.
  - unfold tinv in Hinv. cbn in Hinv. destruct Hinv as [Hwb _]. destruct p as [|i r]; [discriminate|].
    cbn in Hwb. apply andb_true_iff in Hwb as [Hpre _].
    destruct (tstep_shape st i r hs t' Hs Hpre) as [(hs' & -> & _)|(l & hs' & -> & _)]; cbn; lia.
Qed.

Lemma measure_replace : forall n t' st t,
  nth_error st n = Some t -> tmeasure t' < tmeasure t -> measure (replace_nth n t' st) < measure st.
Proof.
  induction n as [|n IH]; intros t' st t Hn Hlt; destruct st as [|a r]; cbn in Hn; try discriminate.
  - inversion Hn; subst. unfold measure; cbn [replace_nth fold_right]. lia.
  - specialize (IH t' r t Hn Hlt). unfold measure in *; cbn [replace_nth fold_right]. lia.
Qed.

Theorem completes_of_rank : forall rank ps, all_ok rank ps = true ->
  forall sched st, exec ps sched = Some st ->
  exists sched' st', run st sched' = Some st' /\ all_done st' = true.
Proof.
  intros rank ps Hok sched st Hex.
  destruct (all_ok_Forall rank ps Hok) as [Hwb Hri].
  pose proof (tinv_exec rank ps sched st Hwb Hri Hex) as Hinv.
  clear Hex. remember (measure st) as n eqn:Hn. revert st Hn Hinv.
  induction n as [n IH] using lt_wf_ind. intros st Hn Hinv.
  destruct (all_done st) eqn:Hd.
  - exists [], st. split; [reflexivity | assumption].
  - destruct (progress rank st Hinv Hd) as (tid & t & t' & Htid & Hs).
    assert (Hti : tinv rank t) by (rewrite Forall_forall in Hinv; eauto using nth_error_In).
    assert (Hlt : measure (replace_nth tid t' st) < n).
    { subst n. eapply measure_replace; [exact Htid|]. eapply tstep_measure; eassumption. }
    destruct (IH _ Hlt (replace_nth tid t' st) eq_refl) as (s' & st' & Hr & Hdone).
    { apply Forall_replace_nth; [assumption|]. eapply tinv_step; eassumption. }
    exists (tid :: s'), st'. split; [|assumption].
    cbn. unfold thread_step. rewrite Htid, Hs. exact Hr.
Qed.
