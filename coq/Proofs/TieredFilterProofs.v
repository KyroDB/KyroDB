(* Proofs about the filtered batch delete of Model/Tiered.v (C11 at the TieredEngine level):
   `meta_fresh` (every mirror entry carries the canonical metadata of its id) is an invariant of all
   API histories without mirror pokes, and in such a state filter_delete removes exactly the
   documents whose CANONICAL metadata satisfies the filter.  Properties/C11tier.v. *)
From Coq Require Import List NArith ZArith Bool Arith Lia.
From Kyro Require Import Model.TMap Model.Tiered Proofs.ListFacts Proofs.TMapFacts Proofs.TieredProofs.
Import ListNotations.

Lemma existsb_eqb_filter : forall k (p : N -> bool) (l : list N),
  existsb (N.eqb k) (filter p l) = existsb (N.eqb k) l && p k.
Proof.
  induction l as [|a r IH]; cbn; auto.
  destruct (p a) eqn:Pa; cbn; rewrite IH; destruct (N.eqb_spec k a) as [->|_]; cbn; rewrite ?Pa, ?andb_false_r; reflexivity.
Qed.

(* every mirror entry has a canonical record and carries ITS metadata *)
Definition meta_fresh (s : state) : Prop :=
  forall id h, lookup id (hot s) = Some h ->
  exists r, lookup id (cold s) = Some r /\ h_meta h = c_meta r.
Definition meta_rel (h : hent) (r : crec) : Prop := h_meta h = c_meta r.

(* the selection the filtered delete is supposed to make: the canonical metadata matches *)
Definition canon_sel (s : state) (f : tfilter) (id : N) : bool :=
  match lookup id (cold s) with Some r => tmatch f (c_meta r) | None => false end.

Definition no_hot_poke_x (o : opx) : bool :=
  match o with OApi o => no_hot_poke o | OFilterDelete _ => true end.

Section Theorems.
  Variable digest : vec -> dgst.
  Variable valid : vec -> bool.
  (* merge AND replace are applied to both tiers alike: that is R_meta of step_mirrored, the step a mirror
     that treats a replace like a merge breaks *)
  Lemma stepx_mfresh : forall c s o, no_hot_poke_x o = true -> meta_fresh s ->
    meta_fresh (fst (stepx digest valid c s o)).
  Proof.
    intros c s o G F. destruct o as [o|f]; cbn [stepx].
    - apply (step_mirrored_api digest valid meta_rel); auto; [intros; reflexivity|].
      intros h r f E. unfold meta_rel in *. cbn. congruence.
    - rewrite fst_let. apply (batch_delete_mirrored meta_rel), F.
  Qed.

  Lemma runx_mfresh : forall c ops s, forallb no_hot_poke_x ops = true -> meta_fresh s ->
    meta_fresh (runx digest valid c s ops).
  Proof.
    unfold runx. induction ops as [|o r IH]; cbn; intros s G F; auto.
    apply andb_true_iff in G. destruct G as [G1 G2]. apply IH; auto. apply stepx_mfresh; auto.
  Qed.
End Theorems.

Lemma init_mfresh : forall docs, meta_fresh (init docs).
Proof. intros docs. apply (mirrored_init meta_rel). Qed.

Lemma hot_scan_mem : forall s f k,
  existsb (N.eqb k) (hot_scan s f) =
  match lookup k (hot s) with Some h => tmatch f (h_meta h) | None => false end.
Proof.
  intros s f k. unfold hot_scan. rewrite existsb_eqb_filter, mem_keys. unfold mem.
  destruct (lookup k (hot s)); auto.
Qed.

Lemma cold_filter_mem : forall s f k, existsb (N.eqb k) (cold_filter_ids s f) = canon_sel s f k.
Proof.
  intros s f k. unfold cold_filter_ids, canon_sel. rewrite existsb_eqb_filter, mem_keys. unfold mem.
  destruct (lookup k (cold s)); auto.
Qed.

(* with a fresh mirror the union hot-scan ∪ cold-index selects exactly the canonical matches *)
Lemma selection_exact : forall s f k, meta_fresh s ->
  existsb (N.eqb k) (sort_dedup (hot_scan s f ++ cold_filter_ids s f)) = canon_sel s f k.
Proof.
  intros s f k F. rewrite in_sort_dedup, existsb_app, hot_scan_mem, cold_filter_mem.
  destruct (lookup k (hot s)) as [h|] eqn:E; auto.
  destruct (F k h E) as [r [L M]]. unfold canon_sel. rewrite L, M. apply orb_diag.
Qed.

Theorem filter_delete_exact_state : forall c s f, meta_fresh s ->
  let r := filter_delete c s f in
  (forall id, lookup id (cold (fst r)) = if canon_sel s f id then None else lookup id (cold s)) /\
  (forall id, lookup id (hot (fst r)) = if canon_sel s f id then None else lookup id (hot s)) /\
  (exists L, NoDup L /\ (forall id, In id L <-> canon_sel s f id = true) /\ snd r = length L) /\
  meta_fresh (fst r).
Proof.
  intros c s f F. cbv zeta. unfold filter_delete.
  set (ids := sort_dedup (hot_scan s f ++ cold_filter_ids s f)).
  destruct (batch_delete_tiers c s ids) as (A & B & N0 & _).
  assert (S : forall k, existsb (N.eqb k) ids = canon_sel s f k) by (intros; apply selection_exact; auto).
  split; [intros id; rewrite A, S; auto|]. split; [intros id; rewrite B, S; auto|].
  split; [|apply (batch_delete_mirrored meta_rel); auto].
  exists (filter (fun id => mem id (hot s) || mem id (cold s)) (sort_dedup ids)).
  split; [apply NoDup_filter, sort_dedup_nodup|]. split; [|exact N0].
  intros id. rewrite filter_In, <- existsb_eqb_In, in_sort_dedup, S. split; [tauto|].
  intros H. split; auto. unfold canon_sel in H. unfold mem.
  destruct (lookup id (cold s)); [apply orb_true_r|discriminate].
Qed.

(* C11tier (c): the variant in which the mirror half of a REPLACE behaves like a merge *)
Definition w_cfg := mkCfg 2 2 false 100 4.
Definition w_k0 : N := 0%N.
Definition w_k1 : N := 1%N.
Definition w_hist : list opx :=
  [OApi (OInsert 1%N [1%Z] [(w_k0, 7%N); (w_k1, 8%N)]);      (* hot-resident document with keys k0, k1 *)
   OApi (OUpdMeta 1%N [(w_k1, 8%N)] false)].                  (* replace: drops k0 *)
Definition w_filter : tfilter := TExact w_k0 7%N.              (* filtered delete on the dropped key *)
