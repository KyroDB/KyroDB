(* The invariant of Model/HotKnn.v that holds in every interleaving (C07, search racing with overwrites). *)
From Coq Require Import List NArith Bool Lia.
From Kyro Require Import Model.HotKnn Proofs.ListFacts.
Import ListNotations.
Open Scope N_scope.

Record Inv (s : st) : Prop := {
  i_inv_le : invalidated s <= canon s;
  i_cap : forall g, s_gen s = Some g -> g <= gen s;
  i_kept : forall g d, s_gen s = Some g -> s_kept s = Some d -> g = gen s -> invalidated s <= d;
  i_kept_le : forall d, s_kept s = Some d -> d <= canon s;
  i_stored : forall d, stored s = Some d -> invalidated s <= d /\ d <= canon s
}.

Lemma Inv_init c m : Inv (init c m).
Proof. constructor; cbn; intros; try discriminate; lia. Qed.

Lemma validate_new_spec s d : validate_new s = Some d -> d = canon s.
Proof.
  unfold validate_new. destruct (s_dist s) as [x|]; [|discriminate]. destruct (mirror s) as [m|]; [|discriminate].
  destruct (N.eqb_spec m x) as [E1|E1]; cbn [andb]; [|discriminate].
  destruct (N.eqb_spec m (canon s)) as [E2|E2]; [|discriminate].
  intros H. inversion H; subst. reflexivity.
Qed.

Lemma step_inv s e : Inv s -> Inv (step validate_new s e).
Proof.
  intros [I1 I0 I2 I3 I4].
  (* most fields are copied by most events, and the searcher's fields are reset to None by several *)
  destruct e; constructor; cbn [step canon mirror gen invalidated s_gen s_dist s_kept stored];
    try assumption; try (intros; discriminate).
  - intros g H. inversion H; subst. lia.
  - (* EValidate: a kept distance is the canonical version's *)
    intros g d _ H _. apply validate_new_spec in H. subst. exact I1.
  - intros d H. apply validate_new_spec in H. subst. lia.
  - (* EStore: only under the captured generation, which no invalidation has bumped since *)
    intros d H.
    destruct (s_gen s) as [g|] eqn:Eg; [|apply I4; exact H].
    destruct (s_kept s) as [k|] eqn:Ek; [|apply I4; exact H].
    destruct (N.eqb_spec g (gen s)) as [E|E]; [|apply I4; exact H].
    inversion H; subst. split; [apply (I2 (gen s) d); auto|apply I3; reflexivity].
  - lia.
  - intros d H. specialize (I3 d H). lia.
  - intros d H. destruct (I4 d H). lia.
  - (* EInvalidate: the generation moves past every captured one *) lia.
  - intros g H. specialize (I0 g H). lia.
  - intros g d H _ E. specialize (I0 g H). lia.
  - intros d H. destruct (stored s) as [x|] eqn:Es; [|discriminate].
    destruct (N.eqb_spec x (canon s)) as [E|E]; [|discriminate]. inversion H; subst. lia.
Qed.

Lemma run_inv es : forall s, Inv s -> Inv (run validate_new s es).
Proof. intro s. apply fold_left_inv. intros a e. apply step_inv. Qed.

(* the check before fix d5bee05: the mirror is refreshed between the distance computation and the peek *)
Definition old_race : list ev := [ECold; EInvalidate; ECapture; ESearch; EMirror 2; EValidate; EStore].
