(* The byte-level WAL / snapshot reader of Model/WalBytes.v. *)
From Coq Require Import List NArith Bool Arith Lia.
From Kyro Require Import Model.WalBytes Proofs.ListFacts.
Import ListNotations.
Open Scope N_scope.

(* global: the importing files rely on them *)
Arguments N.mul : simpl never.
Arguments N.add : simpl never.
Arguments N.div : simpl never.
Arguments N.modulo : simpl never.

Lemma to_le_length n v : length (to_le n v) = n.
Proof. revert v; induction n as [|n IH]; intro v; cbn [to_le length]; [reflexivity|now rewrite IH]. Qed.

Lemma le_n_to_le n v : v < 256 ^ N.of_nat n -> le_n (to_le n v) = v.
Proof.
  revert v; induction n as [|n IH]; intros v Hv.
  - cbn. change (256 ^ N.of_nat 0) with 1 in Hv. lia.
  - cbn [to_le]. unfold le_n in *. cbn [fold_right].
    rewrite IH.
    + pose proof (N.div_mod v 256 ltac:(lia)). lia.
    + rewrite Nat2N.inj_succ, N.pow_succ_r' in Hv.
      apply N.div_lt_upper_bound; lia.
Qed.

Lemma take_app a b : take (N.of_nat (length a)) (a ++ b) = Some (a, b).
Proof.
  unfold take. rewrite app_length, Nat2N.inj_add.
  destruct (N.ltb_spec (N.of_nat (length a) + N.of_nat (length b)) (N.of_nat (length a))) as [H|H]; [lia|].
  rewrite Nat2N.id, firstn_app, Nat.sub_diag, firstn_all, skipn_app, Nat.sub_diag, skipn_all.
  cbn. now rewrite app_nil_r.
Qed.

Lemma take_short n bs : N.of_nat (length bs) < n -> take n bs = None.
Proof. intro H. unfold take. destruct (N.ltb_spec (N.of_nat (length bs)) n); [reflexivity|lia]. Qed.

Lemma take_some n bs a r : take n bs = Some (a, r) -> bs = a ++ r /\ N.of_nat (length a) = n.
Proof.
  unfold take. destruct (N.ltb_spec (N.of_nat (length bs)) n) as [H|H]; [discriminate|].
  intro E. inversion E; subst. split; [symmetry; apply firstn_skipn|].
  rewrite firstn_length. lia.
Qed.

(* a cut falls inside the field, or moves into the rest *)
Lemma take_firstn_app a r n :
  take (N.of_nat (length a)) (firstn n (a ++ r)) =
  if (n <? length a)%nat then None else Some (a, firstn (n - length a) r).
Proof.
  destruct (Nat.ltb_spec n (length a)) as [H|H].
  - apply take_short. rewrite firstn_length. lia.
  - rewrite firstn_app, (firstn_all2 a) by lia. apply take_app.
Qed.

Lemma take_firstn_le k v r n :
  take (N.of_nat k) (firstn n (to_le k v ++ r)) =
  if (n <? k)%nat then None else Some (to_le k v, firstn (n - k) r).
Proof. pose proof (take_firstn_app (to_le k v) r n) as H. now rewrite to_le_length in H. Qed.

Lemma take_to_le k v r : take (N.of_nat k) (to_le k v ++ r) = Some (to_le k v, r).
Proof. rewrite <- (to_le_length k v) at 1. apply take_app. Qed.

Lemma bytes_eqb_refl a : bytes_eqb a a = true.
Proof. induction a as [|x r IH]; cbn; [reflexivity|]. now rewrite N.eqb_refl, IH. Qed.

Lemma bytes_eqb_eq a b : bytes_eqb a b = true -> a = b.
Proof.
  revert b; induction a as [|x r IH]; intros [|y s]; cbn; try discriminate; [reflexivity|].
  intro H. apply andb_prop in H as [H1 H2]. apply N.eqb_eq in H1. subst. f_equal. auto.
Qed.

Section ReaderProofs.
  Variable crc : bytes -> N.
  Variable deser_ok : bytes -> bool.
  Hypothesis crc_lt : forall p, crc p < 4294967296.

  Notation frame := (frame crc).
  Notation segment := (segment crc).
  Notation read_frames := (read_frames crc deser_ok).
  Notation read_all := (read_all crc deser_ok).
  Notation read_all_strict := (read_all_strict crc deser_ok).
  Notation frames := (fun ps => concat (map frame ps)).

  (* a payload the writer can produce: non-empty, at most MAX_WAL_ENTRY_BYTES *)
  Definition valid_payload (p : bytes) : Prop :=
    0 < N.of_nat (length p) /\ N.of_nat (length p) <= max_wal_entry.

  (* `frame p` is `bad_frame p (crc p)` *)
  Definition bad_frame (p : bytes) (ck : N) : bytes :=
    to_le 4 (N.of_nat (length p)) ++ p ++ to_le 4 ck.

  Lemma read_frames_nil f : read_frames f [] = ([], 0).
  Proof. destruct f; reflexivity. Qed.

  Lemma size_ok p : valid_payload p ->
    (N.of_nat (length p) =? 0) || (max_wal_entry <? N.of_nat (length p)) = false.
  Proof.
    intros [H1 H2]. apply orb_false_iff. split; [apply N.eqb_neq; lia|apply N.ltb_ge; exact H2].
  Qed.

  Lemma len_lt_2_32 p : valid_payload p -> N.of_nat (length p) < 256 ^ N.of_nat 4.
  Proof. intros [_ H]. unfold max_wal_entry in H. change (256 ^ N.of_nat 4) with 4294967296. lia. Qed.

  Lemma read_frames_raw f p ck rest : valid_payload p -> ck < 4294967296 ->
    read_frames (S f) (bad_frame p ck ++ rest) =
      let '(es, c) := read_frames f rest in
      if (ck =? crc p) && deser_ok p then (p :: es, c) else (es, c + 1).
  Proof.
    intros Hv Hck. cbn [WalBytes.read_frames]. unfold bad_frame. rewrite <- !app_assoc.
    rewrite (take_to_le 4), (le_n_to_le 4 _ (len_lt_2_32 p Hv)), (size_ok p Hv), take_app, (take_to_le 4).
    rewrite (le_n_to_le 4 ck) by exact Hck.
    destruct (read_frames f rest), (ck =? crc p), (deser_ok p); reflexivity.
  Qed.

  Lemma read_frames_frame f p rest : valid_payload p ->
    read_frames (S f) (frame p ++ rest) =
      let '(es, c) := read_frames f rest in
      if deser_ok p then (p :: es, c) else (es, c + 1).
  Proof.
    intro Hv. change (frame p) with (bad_frame p (crc p)).
    rewrite read_frames_raw, N.eqb_refl by auto. reflexivity.
  Qed.

  Lemma read_frames_bad_frame f p ck rest : valid_payload p -> ck < 4294967296 -> ck <> crc p ->
    read_frames (S f) (bad_frame p ck ++ rest) =
      let '(es, c) := read_frames f rest in (es, c + 1).
  Proof.
    intros Hv Hck Hne. rewrite read_frames_raw by auto. apply N.eqb_neq in Hne. rewrite Hne. reflexivity.
  Qed.

  Lemma frame_length p : length (frame p) = (8 + length p)%nat.
  Proof. unfold WalBytes.frame. rewrite !app_length, !to_le_length. lia. Qed.

  Lemma concat_frames_length ps : (length ps <= length (frames ps))%nat.
  Proof.
    induction ps as [|p ps IH]; cbn [map concat length]; [lia|].
    rewrite app_length, frame_length. lia.
  Qed.

  Lemma frames_fuel ps tail : exists f, S (length (frames ps ++ tail)) = (length ps + S f)%nat.
  Proof.
    exists (length (frames ps ++ tail) - length ps)%nat. rewrite app_length.
    pose proof (concat_frames_length ps). lia.
  Qed.

  Definition undec (ps : list bytes) : N := N.of_nat (length (filter (fun p => negb (deser_ok p)) ps)).

  Lemma read_frames_app ps : forall f tail, Forall valid_payload ps ->
    read_frames (length ps + f) (frames ps ++ tail) =
    let '(es, c) := read_frames f tail in (filter deser_ok ps ++ es, c + undec ps).
  Proof.
    induction ps as [|p ps IH]; intros f tail Hv.
    - cbn. destruct (read_frames f tail) as [es c]. f_equal. unfold undec. cbn. lia.
    - inversion Hv as [|? ? Hp Hps]; subst. cbn [map concat length Nat.add]. rewrite <- app_assoc.
      rewrite (read_frames_frame _ p _ Hp), (IH f tail Hps).
      destruct (read_frames f tail) as [es c]. unfold undec. cbn [filter].
      destruct (deser_ok p); cbn [negb app length]; f_equal; lia.
  Qed.

  Lemma read_all_magic bs : read_all (wal_magic ++ bs) = Some (read_frames (S (length bs)) bs).
  Proof.
    unfold WalBytes.read_all. change 4 with (N.of_nat (length wal_magic)).
    now rewrite take_app, bytes_eqb_refl.
  Qed.

  Lemma read_segment_silent ps t :
    Forall valid_payload ps -> (forall p, In p ps -> deser_ok p = true) ->
    (forall f, read_frames f t = ([], 0)) ->
    read_all_strict (segment ps ++ t) = RdOk ps.
  Proof.
    intros Hv Hd Ht. unfold WalBytes.read_all_strict, WalBytes.segment.
    rewrite <- app_assoc, read_all_magic. destruct (frames_fuel ps t) as [f ->].
    rewrite (read_frames_app ps _ _ Hv), Ht, (filter_all _ _ Hd), app_nil_r. unfold undec.
    rewrite filter_none; [reflexivity|]. intros p Hp. now rewrite (Hd p Hp).
  Qed.

  Lemma read_frames_partial_frame f p n : valid_payload p ->
    (n < length (frame p))%nat ->
    read_frames f (firstn n (frame p)) = ([], 0).
  Proof.
    intros Hv Hn. destruct f as [|f]; [reflexivity|]. cbn [WalBytes.read_frames].
    rewrite frame_length in Hn. unfold WalBytes.frame. rewrite (take_firstn_le 4).
    destruct (n <? 4)%nat eqn:E4; [reflexivity|].
    rewrite (le_n_to_le 4 _ (len_lt_2_32 p Hv)), (size_ok p Hv), take_firstn_app.
    destruct (n - 4 <? length p)%nat eqn:Ep; [reflexivity|].
    rewrite <- (app_nil_r (to_le 4 (crc p))), (take_firstn_le 4).
    apply Nat.ltb_ge in E4, Ep.
    destruct (Nat.ltb_spec (n - 4 - length p) 4); [reflexivity|lia].
  Qed.

  Lemma firstn_frames ps : forall n, Forall valid_payload ps ->
    exists j t, (forall f, read_frames f t = ([], 0)) /\
                firstn n (frames ps) = frames (firstn j ps) ++ t.
  Proof.
    induction ps as [|p ps IH]; intros n Hv.
    - exists 0%nat, []. split; [apply read_frames_nil|]. now rewrite firstn_nil.
    - inversion Hv as [|? ? Hp Hps]; subst. cbn [map concat]. rewrite firstn_app.
      destruct (Nat.lt_ge_cases n (length (frame p))) as [Hn|Hn].
      + exists 0%nat, (firstn n (frame p)). split; [intro f; now apply read_frames_partial_frame|].
        replace (n - _)%nat with 0%nat by lia. cbn. now rewrite app_nil_r.
      + destruct (IH (n - length (frame p))%nat Hps) as (j & t & Ht & E).
        exists (S j), t. split; [exact Ht|].
        rewrite firstn_all2, E by lia. cbn [firstn map concat]. now rewrite app_assoc.
  Qed.

  (* a crash in the middle of an append loses at most the entry being appended *)
  Theorem torn_prefix ps n :
    Forall valid_payload ps -> (forall p, In p ps -> deser_ok p = true) ->
    (4 <= n)%nat ->
    exists j, read_all_strict (firstn n (segment ps)) = RdOk (firstn j ps).
  Proof.
    intros Hv Hd Hn. unfold WalBytes.segment. rewrite firstn_app, (firstn_all2 wal_magic) by exact Hn.
    destruct (firstn_frames ps (n - length wal_magic) Hv) as (j & t & Ht & ->).
    exists j. apply (read_segment_silent (firstn j ps) t); [|intros p Hp; apply Hd; eapply in_firstn; eauto|exact Ht].
    rewrite <- (firstn_skipn j ps) in Hv. now apply Forall_app in Hv.
  Qed.

  Lemma read_frames_corrupted_pos f bs es c : read_frames f bs = (es, c) -> 0 <= c.
  Proof. intros _. lia. Qed.

End ReaderProofs.

Lemma log2_lt_32 a : a < 4294967296 -> N.log2 a < 32.
Proof. intro H. destruct (N.eq_dec a 0) as [->|Z]; [reflexivity|]. apply N.log2_lt_pow2; [lia|exact H]. Qed.

Lemma lxor_lt_2_32 a b : a < 4294967296 -> b < 4294967296 -> N.lxor a b < 4294967296.
Proof.
  intros Ha Hb. destruct (N.eq_dec (N.lxor a b) 0) as [Z|Z]; [rewrite Z; reflexivity|].
  change 4294967296 with (2 ^ 32). apply N.log2_lt_pow2; [lia|].
  eapply N.le_lt_trans; [apply N.log2_lxor|]. apply N.max_lub_lt; now apply log2_lt_32.
Qed.

Lemma crc_bit_lt n c : c < 4294967296 -> crc_bit n c < 4294967296.
Proof.
  revert c; induction n as [|n IH]; intros c Hc; cbn [crc_bit]; [exact Hc|]. apply IH.
  assert (Hs : N.shiftr c 1 < 4294967296).
  { rewrite N.shiftr_div_pow2. change (2 ^ 1) with 2. apply N.div_lt_upper_bound; lia. }
  destruct (N.testbit c 0); [apply lxor_lt_2_32; [exact Hs|reflexivity]|exact Hs].
Qed.

Definition byte_list (bs : bytes) : Prop := Forall (fun b => b < 256) bs.

Lemma crc32_lt bs : byte_list bs -> crc32 bs < 4294967296.
Proof.
  intro Hb. unfold crc32. apply lxor_lt_2_32; [|reflexivity].
  assert (H : forall c, c < 4294967296 ->
            fold_left (fun c b => crc_bit 8 (N.lxor c b)) bs c < 4294967296).
  { induction Hb as [|b bs Hb1 Hb2 IH]; intros c Hc; cbn [fold_left]; [exact Hc|].
    apply IH. apply crc_bit_lt. apply lxor_lt_2_32; [exact Hc|lia]. }
  apply H. reflexivity.
Qed.

Section SnapshotProofs.
  Variable crc : bytes -> N.

  Lemma snapshot_load_envelope data ck rest :
    N.of_nat (length data) < 256 ^ N.of_nat 8 -> ck < 4294967296 ->
    snapshot_load crc (snap_magic ++ to_le 8 (N.of_nat (length data)) ++ data ++ to_le 4 ck ++ rest)
    = if ck =? crc data then Some data else None.
  Proof.
    intros Hl Hck. unfold snapshot_load.
    change 4 with (N.of_nat (length snap_magic)) at 1. rewrite take_app, bytes_eqb_refl. cbn [negb].
    rewrite (take_to_le 8), (le_n_to_le 8 _ Hl), take_app, (take_to_le 4), (le_n_to_le 4 ck) by exact Hck.
    reflexivity.
  Qed.

  Theorem snapshot_truncated_refused data n :
    N.of_nat (length data) < 256 ^ N.of_nat 8 ->
    (n < length (snapshot_file crc data))%nat ->
    snapshot_load crc (firstn n (snapshot_file crc data)) = None.
  Proof.
    intros Hl Hn. unfold snapshot_file in *. rewrite !app_length, !to_le_length in Hn.
    change (length snap_magic) with 4%nat in Hn. unfold snapshot_load.
    change 4 with (N.of_nat (length snap_magic)) at 1. rewrite take_firstn_app.
    change (length snap_magic) with 4%nat.
    destruct (n <? 4)%nat eqn:E4; [reflexivity|]. rewrite bytes_eqb_refl. cbn [negb].
    rewrite (take_firstn_le 8). destruct (n - 4 <? 8)%nat eqn:E8; [reflexivity|].
    rewrite (le_n_to_le 8 _ Hl), take_firstn_app.
    destruct (n - 4 - 8 <? length data)%nat eqn:Ed; [reflexivity|].
    rewrite <- (app_nil_r (to_le 4 (crc data))), (take_firstn_le 4).
    apply Nat.ltb_ge in E4, E8, Ed.
    destruct (Nat.ltb_spec (n - 4 - 8 - length data) 4); [reflexivity|lia].
  Qed.
End SnapshotProofs.

Definition crc32m (p : bytes) : N := crc32 p mod 4294967296.

Lemma crc32m_lt p : crc32m p < 4294967296.
Proof. unfold crc32m. apply N.mod_lt. lia. Qed.

Lemma crc32m_eq bs : byte_list bs -> crc32m bs = crc32 bs.
Proof. intro H. unfold crc32m. apply N.mod_small. apply crc32_lt. exact H. Qed.

(* The length field is NOT covered by the checksum.  Two entries; one bit of the first frame's length
   field flipped (3 -> 131): the frame now runs past end of file, the reader takes it for a torn tail and
   strict reading succeeds with NOTHING. *)
Definition lenflip_file : bytes := segment crc32m [[1; 2; 3]; [4]].
Definition lenflip_damaged : bytes :=
  firstn 4 lenflip_file ++ [131] ++ skipn 5 lenflip_file.

