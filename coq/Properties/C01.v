(* C01 — acknowledged writes survive a crash at any instant; restart always succeeds.
   Lemmas in Proofs/CrashProofs.v (kill model) and Proofs/PowerProofs.v (power loss), both on top of
   Proofs/BackendProofs.v; the byte-level fact is from Proofs/WalBytesProofs.v.

   Model: Model/Backend.v (every operation emits its ordered file-system effects) + Model/Crash.v
   (`crash_kill`: the first n effects, optionally a torn prefix of the next write; `start`: the server's
   start-up decision; `crash_hist c ops n torn`: the crash point at global effect index n of the history
   `ops` — the effects of the very first start-up come first — with the collection after the
   acknowledged operations (`cp_acked`) and after acknowledged + in-flight (`cp_inflight`)).

   Premises: `wf_cfg c = true`, `norm_ok c` (see Properties/C02.v) and `known_c01 c ops n = false`:
   the crash does not fall strictly inside the run of per-id frames of a batch_delete of >= 2 live ids —
   the recorded finding C01-batch-delete-partial, where the property is FALSE
   (`C01_batch_delete_partial_refuted`).

   PROVED for the process-kill model (all completed effects persist; the last write may be torn), every
   configuration incl. every fsync policy: C01_kill, C01_kill_op, C01_restart_idem.
   PROVED for power loss under fsync-always, EVERY loss choice of the model: C01_power_always.
   The periodic-fsync clause: Properties/C01periodic.v. *)
From Coq Require Import List NArith ZArith Bool.
From Kyro Require Import Model.Amap Model.Backend Model.Crash Model.WalBytes
  Proofs.AmapProofs Proofs.BackendProofs Proofs.CrashProofs Proofs.PowerProofs Proofs.WalBytesProofs.
Import ListNotations.
Open Scope N_scope.

(* Kill at ANY instant of ANY history (insert/overwrite, delete, batch delete, metadata update, automatic
   and manual snapshots with log compaction, rotation, tombstone compaction, clean restarts; crash also
   inside a restart or inside the very first start-up): the next strict start-up succeeds and yields the
   collection of the acknowledged operations, optionally followed by the one in flight. *)
Theorem C01_kill : forall (c : cfg) (ops : list op) (n : nat) (torn : bool),
  wf_cfg c = true -> norm_ok c -> known_c01 c ops n = false ->
  exists r, start c (cp_dir (crash_hist c ops n torn)) = SOk r /\
            (st_store r = cp_acked (crash_hist c ops n torn) \/
             st_store r = cp_inflight (crash_hist c ops n torn)).
Proof. intros c ops n torn Hwf Hn. exact (kill_hist c ops n torn Hwf (norm_ok_weaken c Hn)). Qed.

(* The per-operation form: from any state satisfying the invariant, every prefix (k effects, last write
   possibly torn) of the operation's effect list recovers to the old or to the new collection. *)
Theorem C01_kill_op : forall (c : cfg) (s : state) (o : op) s' out effs (k : nat) (torn : bool),
  wf_cfg c = true -> norm_ok c -> Inv c s ->
  step c s o = (s', out, effs) -> (k <= length effs)%nat -> known_op s o k = false ->
  exists r, start c (crash_kill (st_disk s) effs k torn) = SOk r /\
            (st_store r = st_store s \/ st_store r = st_store s').
Proof. intros c s o s' out effs k torn Hwf Hn. exact (kill_op c s o s' out effs k torn Hwf (norm_ok_weaken c Hn)). Qed.

(* A crash during start-up itself leaves the next start-up with the same outcome. *)
Theorem C01_restart_idem : forall (c : cfg) (ops : list op) (k : nat) (torn : bool) s' effs,
  wf_cfg c = true -> norm_ok c ->
  recover_full c Strict (st_disk (run c ops)) = Ok (s', effs) -> (k <= length effs)%nat ->
  exists r, start c (crash_kill (st_disk (run c ops)) effs k torn) = SOk r /\
            st_store r = st_store (run c ops) /\ st_store s' = st_store (run c ops).
Proof. intros c ops k torn s' effs Hwf Hn. exact (restart_idem c _ k torn s' effs Hwf (run_inv c ops Hwf (norm_ok_weaken c Hn))). Qed.

(* ... and a crash during the very first start-up leaves a directory that starts empty. *)
Theorem C01_first_start : forall (c : cfg) (n : nat) (torn : bool),
  wf_cfg c = true -> (n <= length init_effs)%nat ->
  exists r, start c (crash_kill [] init_effs n torn) = SOk r /\ st_store r = empty.
Proof. exact kill_init. Qed.

(* Byte level: every truncation of a well-formed segment (>= its 4-byte magic) reads, in strict mode, as a
   prefix of its entries — the justification of modelling a torn write as tail `Torn`. *)
Theorem C01_torn_write_reads_prefix :
  forall (crc : WalBytes.bytes -> N) (deser_ok : WalBytes.bytes -> bool), (forall p, crc p < 4294967296) ->
  forall ps n, Forall valid_payload ps -> (forall p, In p ps -> deser_ok p = true) -> (4 <= n)%nat ->
  exists j, WalBytes.read_all_strict crc deser_ok (firstn n (segment crc ps)) = RdOk (firstn j ps).
Proof. exact torn_prefix. Qed.

(* ---- the recorded class really violates the property (witness by evaluation; reproduced on the real
   engine by the driver: class C01-batch-delete-partial) ---- *)
Definition bd_cfg : cfg := mkCfg Euclidean 1 0 0 64 FsAlways (fun v => Some v) (fun _ => true).
Definition bd_ops : list op :=
  [OInsert 2 [1065353216]%Z []; OInsert 3 [1073741824]%Z []; OInsert 5 [1077936128]%Z [];
   OBatchDelete [4; 3; 2; 2]].

(* effects: 8 (first start-up) + 3 x (append, fsync); the batch logs frames for ids 3, 2, 2; kill after its first frame *)
Theorem C01_batch_delete_partial_refuted :
  wf_cfg bd_cfg = true /\ norm_ok bd_cfg /\ known_c01 bd_cfg bd_ops 15 = true /\
  let p := crash_hist bd_cfg bd_ops 15 false in
  map fst (cp_acked p) = [2; 3; 5] /\ map fst (cp_inflight p) = [5] /\
  exists r, start bd_cfg (cp_dir p) = SOk r /\ map fst (st_store r) = [2; 5].
Proof.
  split; [reflexivity|]. split; [intros v w H; inversion H; subst; auto|]. split; [vm_compute; reflexivity|].
  split; [vm_compute; reflexivity|]. split; [vm_compute; reflexivity|].
  eexists. split; vm_compute; reflexivity.
Qed.

(* ---- power loss under fsync-always -------------------------------------------------------------------
   `crash_power c ops n l` (Model/Crash.v): the directory after a power loss before global effect index n,
   where the power-loss model keeps per inode the content versions since its last fsync/fdatasync and the
   name-space versions since the last directory fsync, and the loss choice `l` says how many un-synced steps
   survived — per inode and for the directory, in order.  `l` is universally quantified: all-lost,
   data-only-lost, directory-only-lost and nothing-lost (the views the driver materialises) are instances.
   The excluded class `known_power` is C01-batch-delete-partial as it appears under power loss: the frames of
   a batch_delete of >= 2 live ids stay un-synced until its fsync completes, so the class extends to the
   instant "all frames written, fsync not yet done" (`C01_power_batch_unsynced_refuted`). *)
Theorem C01_power_always : forall (c : cfg) (ops : list op) (n : nat) (l : loss),
  wf_cfg c = true -> norm_ok c -> c_fsync c = FsAlways -> known_power c ops n = false ->
  exists r, start c (crash_power c ops n l) = SOk r /\
            (st_store r = cp_acked (crash_hist c ops n false) \/
             st_store r = cp_inflight (crash_hist c ops n false)).
Proof. intros c ops n l Hwf Hn. exact (power_hist c ops n l Hwf (norm_ok_weaken c Hn)). Qed.

(* the un-lossy part of the model is exact: the name-space / inode bookkeeping simulates apply_eff *)
Theorem C01_power_model_simulates : forall (es : list eff) (P : pfs) (d : dir),
  WF P -> Sim P d -> WF (papply_all P es) /\ Sim (papply_all P es) (apply_effs d es).
Proof. exact sim_steps. Qed.

(* crash index 17 of bd_ops: all three frames of the batch written, its fsync not done; the loss choice
   keeps one un-synced step per inode: outside known_c01, inside known_power, and the property fails *)
Theorem C01_power_batch_unsynced_refuted :
  known_c01 bd_cfg bd_ops 17 = false /\ known_power bd_cfg bd_ops 17 = true /\
  nth_error (init_effs ++ all_effs bd_cfg (init bd_cfg) bd_ops) 17 = Some (EFsync (NWal 1)) /\
  exists r, start bd_cfg (crash_power bd_cfg bd_ops 17 (mkLoss 1000 (fun _ => 1%nat))) = SOk r /\
            map fst (st_store r) = [2; 5] /\
            map fst (cp_acked (crash_hist bd_cfg bd_ops 17 false)) = [2; 3; 5] /\
            map fst (cp_inflight (crash_hist bd_cfg bd_ops 17 false)) = [5].
Proof.
  split; [vm_compute; reflexivity|]. split; [vm_compute; reflexivity|]. split; [vm_compute; reflexivity|].
  eexists. split; [vm_compute; reflexivity|]. split; [vm_compute; reflexivity|]. split; vm_compute; reflexivity.
Qed.

(* evaluation of the same model on a history with rotation, compaction, tombstone compaction and restarts
   (a regression example for the executable oracles: it follows from C01_kill and C01_power_always, because
   the oracles report nothing where those theorems apply) *)
Definition pw_norm (v : vec) : option vec :=
  match v with [] => None | _ :: _ => Some (map (fun _ => 1%Z) v) end.
Definition pw_cfg : cfg := mkCfg Cosine 2 2 1 3 FsAlways pw_norm (fun _ => true).
Definition pw_ops : list op :=
  [OInsert 1 [5; 6]%Z [([107], [1])]; OInsert 2 [7; 8]%Z []; OInsert 1 [9; 9]%Z [([107], [2])];
   ODelete 2; ORestart; OInsert 2 [3; 3]%Z []; OBatchDelete [1; 9]; OUpdate 2 [([108], [3])] true;
   OInsert 4 [2; 2]%Z []; OInsert 5 [2; 2]%Z []; OSnapshot; ORestart].

Lemma pw_norm_ok : norm_ok pw_cfg.
Proof.
  intros v w H. cbn in H. unfold pw_norm in H. destruct v as [|z v]; [discriminate|]. inversion H; subst.
  split; [cbn [map length]; rewrite map_length; reflexivity|]. cbn. rewrite map_map. reflexivity.
Qed.

(* every crash index of this history (rotation after every append, snapshot + compaction every 2
   mutations, tombstone compaction, two restarts) x {all un-synced lost, un-synced data lost, un-synced
   directory changes lost, nothing lost}: start-up succeeds with acked or acked + in-flight *)
Example C01_power_always_partial :
  c_fsync pw_cfg = FsAlways /\ (100 < total_effs pw_cfg pw_ops)%nat /\
  power_bad pw_cfg pw_ops = [] /\ kill_bad pw_cfg pw_ops = [].
Proof.
  split; [reflexivity|]. split; [apply Nat.ltb_lt; vm_compute; reflexivity|].
  split; [apply power_bad_nil; [reflexivity|exact (norm_ok_weaken _ pw_norm_ok)|reflexivity|vm_compute; reflexivity]
         |apply kill_bad_nil; [reflexivity|exact (norm_ok_weaken _ pw_norm_ok)]].
Qed.

(* ---- non-vacuity of C01_kill: crash index 44 of this history lies inside an automatic snapshot with log
   compaction — after the pointer save and the pruned-list save, between the unlink of wal#1 and the unlink
   of wal#2, before the final manifest save — and is outside the known class ---- *)
Example C01_nonvacuous :
  wf_cfg pw_cfg = true /\ norm_ok pw_cfg /\
  known_c01 pw_cfg pw_ops 44 = false /\
  nth_error (init_effs ++ all_effs pw_cfg (init pw_cfg) pw_ops) 43 = Some (EUnlink (NWal 1)) /\
  nth_error (init_effs ++ all_effs pw_cfg (init pw_cfg) pw_ops) 44 = Some (EUnlink (NWal 2)) /\
  exists r, start pw_cfg (cp_dir (crash_hist pw_cfg pw_ops 44 false)) = SOk r /\
            st_store r = cp_inflight (crash_hist pw_cfg pw_ops 44 false).
Proof.
  split; [reflexivity|]. split; [exact pw_norm_ok|].
  split; [vm_compute; reflexivity|]. split; [vm_compute; reflexivity|]. split; [vm_compute; reflexivity|].
  eexists. split; vm_compute; reflexivity.
Qed.

Print Assumptions C01_kill.
Print Assumptions C01_kill_op.
Print Assumptions C01_restart_idem.
Print Assumptions C01_first_start.
Print Assumptions C01_torn_write_reads_prefix.
Print Assumptions C01_batch_delete_partial_refuted.
Print Assumptions C01_power_always.
Print Assumptions C01_power_model_simulates.
Print Assumptions C01_power_batch_unsynced_refuted.
Print Assumptions C01_power_always_partial.
Print Assumptions C01_nonvacuous.
