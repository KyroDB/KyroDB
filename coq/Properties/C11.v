(* C11 — metadata filters select exactly the matching documents.  `parse` is Rust's str::parse::<f64>() as an arbitrary function to f64 bit
   patterns: every theorem holds for every such function.  `reachable parse s` = s is the state after
   ANY history of insert / overwrite / merge- and replace-update / delete / batch delete (by ids or by
   filter) / tombstone compaction / recovery-rebuild, from an empty backend of any capacity. *)
From Coq Require Import List NArith ZArith Bool.
From Kyro Require Import Model.Filter Proofs.FilterLemmas Proofs.FilterProofs.
Import ListNotations.

(* After every history the inverted index answers every lookup exactly as a fresh rebuild_from(store). *)
Theorem C11_index_consistent : forall (parse : str -> option Z) (s : state),
  reachable parse s -> lookups_agree (idx s) (rebuild_from parse (slots s)).
Proof. intros parse s R. exact (Inv_agree parse _ _ _ (proj1 (reachable_good parse s R)) (Inv_rebuild parse (slots s))). Qed.

(* For every filter tree (any depth, empty forms, unset oneofs) the ids selected through the index
   (or its scan fallback) are exactly the live documents whose metadata satisfies the reference
   semantics, each once. *)
Theorem C11_filter_exact : forall (parse : str -> option Z) (s : state) (f : mfilter),
  reachable parse s ->
  (forall d, In d (ids_for_filter parse s f)
             <-> In d (map fst (filter (fun dm => matches parse f (snd dm)) (live_docs (slots s)))))
  /\ NoDup (ids_for_filter parse s f).
Proof.
  intros parse s f R. pose proof (reachable_good parse s R) as G. split.
  - intro d. rewrite <- scan_live_docs. apply ids_for_filter_exact, G.
  - apply ids_for_filter_NoDup, G.
Qed.

(* Stronger form: the very same list in the same (internal id) order as scan(matches). *)
Theorem C11_filter_exact_ordered : forall (parse : str -> option Z) (s : state) (f : mfilter),
  reachable parse s ->
  ids_for_filter parse s f
  = map fst (filter (fun dm => matches parse f (snd dm)) (live_docs (slots s))).
Proof. intros parse s f R. rewrite <- scan_live_docs. apply ids_for_filter_eq_scan, reachable_good, R. Qed.

(* A filtered batch delete removes exactly the matching documents and leaves every other document and
   its metadata untouched. *)
Theorem C11_batch_delete_exact : forall (parse : str -> option Z) (s : state) (f : mfilter),
  reachable parse s ->
  forall d m, In (d, m) (live_docs (slots (fst (step parse s (OBatchDeleteFilter f)))))
              <-> In (d, m) (live_docs (slots s)) /\ matches parse f m = false.
Proof. intros parse s f R. cbn [step fst]. apply batch_delete_filter_exact, reachable_good, R. Qed.

(* The ordered key of the numeric index is order-isomorphic to f64 comparison on non-NaN values. *)
Theorem C11_okey_order : forall a b : Z, (0 <= a < two64)%Z -> (0 <= b < two64)%Z ->
  f64_is_nan a = false -> f64_is_nan b = false ->
  (okey a <=? okey b)%Z = f64_le a b /\ (okey a <? okey b)%Z = f64_lt a b
  /\ ((okey a =? okey b)%Z = f64_eq a b).
Proof. exact okey_order. Qed.

(* Non-vacuity: a concrete history (overwrite, merge update numeric -> string, delete, compaction on a
   full index, recovery) is reachable, the range filter selects a non-trivial subset through the
   numeric and the lexicographic branch ("abc" >= "9" as strings), -0 and +0 are one key, and a nested filter containing an
   unset NOT takes the scan fallback. *)
Definition ex_k : str := [107]%N.
Definition ex_10 : str := [49; 48]%N.
Definition ex_9 : str := [57]%N.
Definition ex_m0 : str := [45; 48]%N.
Definition ex_abc : str := [97; 98; 99]%N.
Definition ex_0 : str := [48]%N.
Definition ex_parse : str -> option Z :=
  parse_tbl [(ex_10, Some 4621819117588971520%Z); (ex_9, Some 4621256167635550208%Z);
             (ex_m0, Some 9223372036854775808%Z); (ex_abc, None); (ex_0, Some 0%Z)].
Definition ex_ops : list op :=
  [OInsert 1 [(ex_k, ex_10)]; OInsert 2 [(ex_k, ex_9)]; OInsert 3 [(ex_k, ex_abc)];
   OInsert 2 [(ex_k, ex_m0)]; OUpdate 1 [(ex_k, ex_abc)] true; ODelete 3;
   OInsert 4 [(ex_k, ex_9)]; OInsert 5 [(ex_k, ex_10)]; ORecover]%N.

Example C11_nonvacuous :
  exists s, reachable ex_parse s
    /\ length (slots s) = 4%nat
    /\ ids_for_filter ex_parse s (FRange ex_k (Some (Gte ex_9))) = [1; 4; 5]%N
    /\ ids_for_filter ex_parse s (FRange ex_k (Some (Lte ex_0))) = [2]%N
    /\ ids_for_filter ex_parse s (FRange ex_k (Some (Gte ex_0))) = [1; 2; 4; 5]%N
    /\ ids_for_filter ex_parse s (FAnd [FNot None; FNone]) = []
    /\ ids_for_filter ex_parse s (FOr [FNot None; FNone]) = [1; 2; 4; 5]%N
    /\ ids_for_filter ex_parse s (FNot (Some (FRange ex_k (Some (Gt ex_9))))) = [2; 4]%N
    /\ map fst (live_docs (slots (fst (step ex_parse s (OBatchDeleteFilter (FExact ex_k ex_abc)))))) = [2; 4; 5]%N.
Proof.
  exists (run_state ex_parse (init 4) ex_ops). split; [exists 4%nat, ex_ops; reflexivity|].
  vm_compute. repeat split; reflexivity.
Qed.

Print Assumptions C11_index_consistent.
Print Assumptions C11_filter_exact.
Print Assumptions C11_filter_exact_ordered.
Print Assumptions C11_batch_delete_exact.
Print Assumptions C11_okey_order.
