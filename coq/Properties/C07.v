(* C07 — the query-result cache never serves stale or foreign results (Model/QCache.v).
   All distance comparisons are in sqrt-free squared form over exact rationals (the "SQ:" comments
   of the model):  dist_le m q x w = "distance_m(q,x) <= w",  dist_lt = "... < w". *)
From Coq Require Import QArith List NArith ZArith Bool Arith Sorting.Sorted.
From Kyro Require Import Model.QCache Proofs.QCacheProofs Proofs.QCacheInv Proofs.QCacheEngine Proofs.QCacheKnn.
Import ListNotations.
Open Scope Q_scope.

(* The invalidation prefilter is sound: "cannot affect" implies distance(q,x) > worst. *)
Theorem C07_prefilter_sound : forall (m : metric) (p : nat) (q x : vec) (w : Q),
  length q = length x ->
  can_affect m p q x w = false -> dist_le m q x w = false.
Proof. exact prefilter_sound. Qed.

Theorem C07_cauchy_schwarz : forall a b : vec, dot a b * dot a b <= sumsq a * sumsq b.
Proof. exact cauchy_schwarz. Qed.

(* Every cached entry is valid after every sequential history, for each metric, relative to an
   abstract exact k-NN oracle (premises O_live, O_len, O_sorted, O_omit) whose reported distances are
   related to vectors by an arbitrary relation isd. *)
Theorem C07_entry_valid : forall (m : metric) (isd : vec -> vec -> Q -> Prop)
    (fresh_search : collection -> vec -> nat -> list result) (cfg : config),
  (forall c q k id d, In (id, d) (fresh_search c q k) -> exists v, c_get c id = Some v /\ isd q v d) ->
  (forall c q k, (length (fresh_search c q k) <= k)%nat) ->
  (forall c q k, StronglySorted rle (fresh_search c q k)) ->
  (forall c q k id v, (1 <= k)%nat -> c_get c id = Some v -> ~ In id (map fst (fresh_search c q k)) ->
       length (fresh_search c q k) = k /\
       exists w, worst (fresh_search c q k) = Some w /\ dist_lt m q v w = false) ->
  forall (ops : list eop) (e : entry),
  let st := erun (pre_m m) (dist_le m) fresh_search cfg einit ops in
  In e (s_entries (e_cache st)) -> Valid (dist_lt m) isd (e_coll st) e.
Proof.
  intros m isd fs cfg O1 O2 Os O3.
  exact (entry_valid (pre_m m) (dist_le m) (dist_lt m) isd fs cfg (pre_m_sound m) (dist_lt_le m) O1 O2 Os O3).
Qed.

(* An engine cache hit is the k-prefix of a valid entry stored under the request's own scope with
   k <= requested_k. *)
Theorem C07_hit_valid : forall (m : metric) (isd : vec -> vec -> Q -> Prop)
    (fresh_search : collection -> vec -> nat -> list result) (cfg : config),
  (forall c q k id d, In (id, d) (fresh_search c q k) -> exists v, c_get c id = Some v /\ isd q v d) ->
  (forall c q k, (length (fresh_search c q k) <= k)%nat) ->
  (forall c q k, StronglySorted rle (fresh_search c q k)) ->
  (forall c q k id v, (1 <= k)%nat -> c_get c id = Some v -> ~ In id (map fst (fresh_search c q k)) ->
       length (fresh_search c q k) = k /\
       exists w, worst (fresh_search c q k) = Some w /\ dist_lt m q v w = false) ->
  forall (ops : list eop) (scope : N) (q : vec) (k : nat) (r : list result) (st' : estate),
  let st := erun (pre_m m) (dist_le m) fresh_search cfg einit ops in
  estep (pre_m m) (dist_le m) fresh_search cfg st (ESearch scope q k) = (st', RHit r) ->
  exists e, In e (s_entries (e_cache st)) /\ Valid (dist_lt m) isd (e_coll st) e /\
            e_scope e = scope /\ (k <= e_kreq e)%nat /\ r = firstn k (e_results e).
Proof.
  intros m isd fs cfg O1 O2 Os O3.
  exact (hit_valid (pre_m m) (dist_le m) (dist_lt m) isd fs cfg (pre_m_sound m) (dist_lt_le m) O1 O2 Os O3).
Qed.

(* Scope and k, on BOTH lookup paths of get_scoped, in every reachable cache state. *)
Theorem C07_scope : forall (cfg : config) (ops : list op) (scope : N) (q : vec) (k : nat) (r : list result),
  let s := run_state cfg empty ops in
  snd (get_scoped cfg s scope q k) = Some r ->
  exists e, In e (s_entries s) /\ e_scope e = scope /\ (k <= e_kreq e)%nat /\
            r = firstn k (e_results e).
Proof.
  intros cfg ops scope q k r s H. destruct (run_state_served _ _ _ _ _ _ H) as [e [He [Hsc [Hk [Hr _]]]]]. exists e. auto.
Qed.

(* an entry is used only for k <= requested_k, and exactly its k-prefix is served *)
Theorem C07_k_prefix_served : forall (cfg : config) (ops : list op) (scope : N) (q : vec) (k : nat) (r : list result),
  let s := run_state cfg empty ops in
  snd (get_scoped cfg s scope q k) = Some r ->
  exists e, In e (s_entries s) /\ (k <= e_kreq e)%nat /\ r = firstn k (e_results e).
Proof.
  intros cfg ops scope q k r s H. destruct (C07_scope cfg ops scope q k r H) as [e [A [_ [B C]]]].
  exists e. auto.
Qed.

(* An engine cache hit for k >= 1 uses an entry stored for k_req >= k, serves exactly its k-prefix,
   and that k-prefix is itself a valid answer for k (Valid of the entry cut to k: only live ids with
   their current reported distance, no live document strictly inside the PREFIX's own boundary, the
   prefix full and sorted).  One premise beyond C07_entry_valid's: the reported distance is the one
   the cache compares (a document reported at d is not strictly inside any boundary w <= d). *)
Theorem C07_k_monotone : forall (m : metric) (isd : vec -> vec -> Q -> Prop)
    (fresh_search : collection -> vec -> nat -> list result) (cfg : config),
  (forall c q k id d, In (id, d) (fresh_search c q k) -> exists v, c_get c id = Some v /\ isd q v d) ->
  (forall c q k, (length (fresh_search c q k) <= k)%nat) ->
  (forall c q k, StronglySorted rle (fresh_search c q k)) ->
  (forall c q k id v, (1 <= k)%nat -> c_get c id = Some v -> ~ In id (map fst (fresh_search c q k)) ->
       length (fresh_search c q k) = k /\
       exists w, worst (fresh_search c q k) = Some w /\ dist_lt m q v w = false) ->
  (forall q v d w, isd q v d -> w <= d -> dist_lt m q v w = false) ->
  forall (ops : list eop) (scope : N) (q : vec) (k : nat) (r : list result) (st' : estate),
  let st := erun (pre_m m) (dist_le m) fresh_search cfg einit ops in
  (1 <= k)%nat ->
  estep (pre_m m) (dist_le m) fresh_search cfg st (ESearch scope q k) = (st', RHit r) ->
  exists e, In e (s_entries (e_cache st)) /\ e_scope e = scope /\ (k <= e_kreq e)%nat /\
            r = firstn k (e_results e) /\ Valid (dist_lt m) isd (e_coll st) e /\
            Valid (dist_lt m) isd (e_coll st) (prefix_entry e k) /\ e_results (prefix_entry e k) = r.
Proof.
  intros m isd fs cfg O1 O2 Os O3 Hi.
  exact (k_monotone (pre_m m) (dist_le m) (dist_lt m) isd fs cfg (pre_m_sound m) (dist_lt_le m)
                    O1 O2 Os O3 (dist_lt_mono m) Hi).
Qed.

Theorem C07_dist_lt_mono : forall (m : metric) (q v : vec) (w w' : Q),
  dist_lt m q v w = false -> w' <= w -> dist_lt m q v w' = false.
Proof. exact dist_lt_mono. Qed.

(* One searcher and any number of writer steps, any interleaving: a result computed before a generation bump is never
   stored after it. *)
Theorem C07_no_store_after_invalidate : forall (pre dle : vec -> vec -> Q -> bool)
    (fresh_search : collection -> vec -> nat -> list result) (cfg : config) (evs : list iev) (s : istate),
  irun pre dle fresh_search cfg iinit evs = Some s ->
  forall out, In (true, out) (i_log s) -> out = SkippedGeneration.
Proof.
  intros pre dle fs cfg evs s H. exact (proj2 (irun_IInv pre dle fs cfg evs iinit s IInv_init H)).
Qed.

(* A hit is either the same quantisation cell (every component within 2^-15 of the stored query's)
   or more similar than the threshold.  Only remaining premise: for the request and the stored
   queries, |val| * 32768 <= f32::MAX (the scaled value is finite in f32), `fin_scaled`. *)
Theorem C07_hit_same_or_similar : forall (cfg : config) (ops : list op) (scope : N) (q : vec) (k : nat)
    (r : list result),
  let s := run_state cfg empty ops in
  fin_scaled q = true -> (forall e, In e (s_entries s) -> fin_scaled (e_query e) = true) ->
  snd (get_scoped cfg s scope q k) = Some r ->
  exists e, In e (s_entries s) /\ e_scope e = scope /\ (k <= e_kreq e)%nat /\
            r = firstn k (e_results e) /\
            (Forall2 near1 q (e_query e) \/ c_thr cfg * c_thr cfg < cos_ssq q (e_query e)).
Proof.
  intros cfg ops scope q k r s Hq Hbox H. destruct (run_state_served _ _ _ _ _ _ H) as [e [He [Hsc [Hk [Hr Hor]]]]].
  exists e. repeat split; auto. destruct Hor as [Hkey|Hsim]; [left|right; exact Hsim].
  destruct (run_state_CInv cfg ops empty (CInv_nil _)) as [_ [_ HQ]]. rewrite (HQ e He) in Hkey.
  apply same_cell_near; auto.
Qed.

Definition sat_cfg : config := mkCfg 4 1 2000.
Definition sat_ops : list op := [OInsert 0 [5; 3] [(1%N, 0)] 1].

(* REGRESSION WITNESS ABOUT THE OLD QUANTISATION (`... as i16`, before /repo 6ba2bfe): outside the
   unit box the saturating cast gave the dissimilar queries [2;7] and [5;3] one key; with the
   current quantisation the keys differ and get([2;7]) after insert([5;3]) is a miss. *)
Example C07_old_quantisation_saturates :
  quantise_old [2; 7] = quantise_old [5; 3] /\ ~ Forall2 near1 [2; 7] [5; 3] /\
  quantise [2; 7] <> quantise [5; 3] /\
  snd (get_scoped sat_cfg (run_state sat_cfg empty sat_ops) 0 [2; 7] 1) = None.
Proof.
  split; [vm_compute; reflexivity|]. split; [|split; [vm_compute; discriminate|vm_compute; reflexivity]].
  intro H. inversion H as [|? ? ? ? _ H2]; subst. inversion H2 as [|? ? ? ? [_ H3] _]; subst.
  revert H3. vm_compute. discriminate.
Qed.

(* Size bound (C20): every reachable cache state holds at most `capacity` entries. *)
Theorem qcache_len_bound : forall (cfg : config) (ops : list op),
  (1 <= c_cap cfg)%nat -> (length (s_entries (run_state cfg empty ops)) <= c_cap cfg)%nat.
Proof. exact len_bound. Qed.

(* capacity 0 breaks the bound (KyroDbConfig::validate refuses it) *)
Example qcache_cap0_unbounded :
  length (s_entries (run_state (mkCfg 0 1 2000) empty [OInsert 0 [1] [(1%N, 0)] 1])) = 1%nat.
Proof. vm_compute. reflexivity. Qed.

(* the oracle premises of C07_entry_valid / C07_hit_valid / C07_k_monotone are satisfiable: an
   executable exact k-NN (insertion sort over the live documents, inner-product metric) meets them
   all, so the theorems apply to it with no premise left *)
Example C07_oracle_premises_satisfiable :
  (forall c q k id d, In (id, d) (ip_knn c q k) -> exists v, c_get c id = Some v /\ ip_isd q v d) /\
  (forall c q k, (length (ip_knn c q k) <= k)%nat) /\
  (forall c q k, StronglySorted rle (ip_knn c q k)) /\
  (forall c q k id v, (1 <= k)%nat -> c_get c id = Some v -> ~ In id (map fst (ip_knn c q k)) ->
       length (ip_knn c q k) = k /\
       exists w, worst (ip_knn c q k) = Some w /\ dist_lt InnerProduct q v w = false) /\
  (forall q v d w, ip_isd q v d -> w <= d -> dist_lt InnerProduct q v w = false).
Proof.
  split; [exact ip_knn_live|]. split; [exact ip_knn_len|]. split; [exact ip_knn_sorted|].
  split; [exact ip_knn_omit|exact ip_isd_lt].
Qed.

Corollary C07_entry_valid_ip : forall (cfg : config) (ops : list eop) (e : entry),
  let st := erun (pre_m InnerProduct) (dist_le InnerProduct) ip_knn cfg einit ops in
  In e (s_entries (e_cache st)) -> Valid (dist_lt InnerProduct) ip_isd (e_coll st) e.
Proof.
  intro cfg. exact (C07_entry_valid InnerProduct ip_isd ip_knn cfg ip_knn_live ip_knn_len ip_knn_sorted ip_knn_omit).
Qed.

Corollary C07_k_monotone_ip : forall (cfg : config) (ops : list eop) (scope : N) (q : vec) (k : nat)
    (r : list result) (st' : estate),
  let st := erun (pre_m InnerProduct) (dist_le InnerProduct) ip_knn cfg einit ops in
  (1 <= k)%nat ->
  estep (pre_m InnerProduct) (dist_le InnerProduct) ip_knn cfg st (ESearch scope q k) = (st', RHit r) ->
  exists e, In e (s_entries (e_cache st)) /\ e_scope e = scope /\ (k <= e_kreq e)%nat /\
            r = firstn k (e_results e) /\ Valid (dist_lt InnerProduct) ip_isd (e_coll st) e /\
            Valid (dist_lt InnerProduct) ip_isd (e_coll st) (prefix_entry e k) /\
            e_results (prefix_entry e k) = r.
Proof.
  intro cfg. exact (C07_k_monotone InnerProduct ip_isd ip_knn cfg ip_knn_live ip_knn_len ip_knn_sorted
                                   ip_knn_omit ip_isd_lt).
Qed.

(* a hit for k = 1 served from an entry stored for k = 2: the hypotheses of C07_k_monotone_ip are met *)
Example C07_k_monotone_nonvacuous :
  let st := erun (pre_m InnerProduct) (dist_le InnerProduct) ip_knn sat_cfg einit
                 [EInsert 1 [1; 0]; EInsert 2 [0; 1]; EInsert 3 [-1; 0]; ESearch 0 [1; 0] 2] in
  snd (estep (pre_m InnerProduct) (dist_le InnerProduct) ip_knn sat_cfg st (ESearch 0 [1; 0] 1)) = RHit [(1%N, 0)] /\
  map e_kreq (s_entries (e_cache st)) = [2%nat].
Proof. vm_compute. auto. Qed.

(* a concrete engine history in which an entry survives a far insert, is served as a hit, and is
   removed by a near insert *)
Example C07_engine_nonvacuous :
  let run := fun ops => erun (pre_m InnerProduct) (dist_le InnerProduct) ip_knn sat_cfg einit ops in
  let h := [EInsert 1 [1; 0]; EInsert 2 [0; 1]; ESearch 0 [1; 0] 1; EInsert 3 [-1; 0]] in
  length (s_entries (e_cache (run h))) = 1%nat /\
  snd (estep (pre_m InnerProduct) (dist_le InnerProduct) ip_knn sat_cfg (run h) (ESearch 0 [1; 0] 1)) = RHit [(1%N, 0)] /\
  length (s_entries (e_cache (run (h ++ [EInsert 4 [2; 0]])))) = 0%nat.
Proof. vm_compute. auto. Qed.

(* the interleaving semantics has runs in which the store is skipped, and runs in which it is not *)
Example C07_interleaving_nonvacuous :
  let fs := fun (c : collection) (q : vec) (k : nat) => firstn k (map (fun p => (fst p, 1 - dot q (snd p))) c) in
  (exists s, irun (pre_m InnerProduct) (dist_le InnerProduct) fs sat_cfg iinit
               [WMutPut 1 [1]; SRead 0 [1] 1; SCompute; WMutPut 2 [1]; WBump; SStore; WRemove (WRemInsert [1])] = Some s /\
             i_log s = [(true, SkippedGeneration)] /\ s_entries (i_cache s) = []) /\
  (exists s, irun (pre_m InnerProduct) (dist_le InnerProduct) fs sat_cfg iinit
               [WMutPut 1 [1]; SRead 0 [1] 1; SCompute; SStore; WMutPut 2 [1]; WBump] = Some s /\
             i_log s = [(false, Inserted None)] /\ length (s_entries (i_cache s)) = 1%nat).
Proof. split; eexists; vm_compute; auto. Qed.

(* the prefilter really prunes: a far insert leaves the entry in place, a near one removes it *)
Example C07_prefilter_nonvacuous :
  can_affect Cosine 1 [1; 0] [-1; 0] (1 # 2) = false /\
  can_affect Euclidean 1 [0; 0] [3; 0] 2 = false /\
  can_affect InnerProduct 1 [1; 0] [-1; 0] (1 # 2) = false /\
  can_affect Cosine 1 [1; 0] [1; 1] (1 # 2) = true.
Proof. vm_compute. auto. Qed.

Print Assumptions C07_prefilter_sound.
Print Assumptions C07_entry_valid.
Print Assumptions C07_entry_valid_ip.
Print Assumptions C07_hit_valid.
Print Assumptions C07_scope.
Print Assumptions C07_k_prefix_served.
Print Assumptions C07_k_monotone.
Print Assumptions C07_k_monotone_ip.
Print Assumptions C07_no_store_after_invalidate.
Print Assumptions C07_hit_same_or_similar.
Print Assumptions C07_old_quantisation_saturates.
Print Assumptions qcache_len_bound.
