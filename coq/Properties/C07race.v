(* C07, search racing with overwrites: the hot-tier candidate inside a stored query-cache entry
   (Model/HotKnn.v).  `es` ranges over EVERY interleaving of the searcher's four steps (capture the
   invalidation generation, compute the hot-tier distance together with the mirror's token, validate,
   store under the captured generation) with any number of writers' steps (canonical write, query-cache
   invalidation, mirror refresh with any version) and evictions, from any initial versions.  A write
   is acknowledged only after its invalidation step, so `invalidated` bounds every acknowledged
   overwrite from above. *)
From Coq Require Import List NArith Bool.
From Kyro Require Import Model.HotKnn Proofs.HotKnnProofs.
Import ListNotations.
Open Scope N_scope.

(* The stored entry never holds a hot-tier distance older than the newest version whose invalidation
   has run. *)
Theorem C07_stored_hot_distance_fresh :
  forall (c : N) (m : option N) (es : list ev), fresh (run validate_new (init c m) es) = true.
Proof.
  intros c m es. pose proof (run_inv es _ (Inv_init c m)) as I. unfold fresh.
  destruct (stored (run validate_new (init c m) es)) as [d|] eqn:E; [|reflexivity].
  apply N.leb_le. exact (proj1 (i_stored _ I d E)).
Qed.

Theorem C07_hot_race_step :
  forall s e, Inv s -> Inv (step validate_new s e).
Proof. exact step_inv. Qed.

(* REGRESSION (defect repaired by fix d5bee05): validating the PEEKED mirror entry while keeping the
   distance computed earlier stores a pre-overwrite distance after the overwrite's invalidation. *)
Theorem C07_old_validation_refuted :
  let s := run validate_old (init 1 (Some 1)) old_race in
  stored s = Some 1 /\ invalidated s = 2 /\ canon s = 2 /\ fresh s = false.
Proof. vm_compute. repeat split. Qed.

(* a current candidate is kept and stored; on the race trace the candidate is dropped *)
Example C07_hot_race_nonvacuous :
  stored (run validate_new (init 1 (Some 1)) [ECold; EInvalidate; EMirror 2; ECapture; ESearch; EValidate; EStore]) = Some 2
  /\ stored (run validate_new (init 1 (Some 1)) old_race) = None.
Proof. vm_compute. split; reflexivity. Qed.

Print Assumptions C07_stored_hot_distance_fresh.
Print Assumptions C07_hot_race_step.
Print Assumptions C07_old_validation_refuted.
