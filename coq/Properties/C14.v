(* C14 — tenant vector quotas are exact.  Statements only; proofs live in Proofs/QuotaProofs.v; the
   model is Model/Quota.v (sequential handlers + interleaving model of the quota protocol).
   PARTIAL: sequential histories are proved for every history; concurrency is proved on the
   interleaving model for ANY NUMBER of concurrent calls out of {Insert, BulkInsert, BulkLoadHnsw,
   Delete, BatchDelete}, of one tenant (C14_many_calls) and of any number of tenants
   (C14_many_tenants), every schedule (all five take the per-tenant quota mutex since /repo 3784711).
   Crashes are not covered (restart is modelled at quiescent points); runtime scheduling of the real
   binary is sampled by the harness, not proved.
   The protocol BEFORE 3784711 (Delete / BatchDelete without the mutex) is kept as regression
   documentation: Examples C14_old_protocol_* show the schedules on which it drifted. *)
From Coq Require Import List NArith Bool Lia.
From Kyro Require Import Model.Quota Proofs.QuotaProofs.
Import ListNotations.
Open Scope N_scope.

(* ---- sequential: for EVERY history of RPCs by any tenants (duplicates inside batches, absent ids,
   rejected inputs, engine-rejected items, partial bulk-load failure, probes, restarts), for every
   tenant: the server's count equals the number of the tenant's live documents. *)
Theorem C14_count_exact_seq :
  forall (cfg : qcfg) (es : list qev) (t : N),
  let s := qfinal cfg es in
  t_count (tget s t) = len (t_live (tget s t)) /\ NoDup (t_live (tget s t)).
Proof. intros cfg es t s. destruct (qfinal_good cfg es t) as [A [B _]]. split; assumption. Qed.
(* qfinal is the state the response-producing run ends in *)
Theorem C14_run_state :
  forall cfg es, fst (qrun_from cfg [] es) = qfinal cfg es.
Proof. intros. apply qrun_from_fst. Qed.

Theorem C14_never_above_limit :
  forall (cfg : qcfg) (es : list qev) (t : N),
  len (t_live (tget (qfinal cfg es) t)) <= q_limit cfg t.
Proof. intros cfg es t. destruct (qfinal_good cfg es t) as [A [_ C]]. rewrite <- A. exact C. Qed.

(* after any history, an Insert that passes input validation is refused for quota IFF its id is new
   and the tenant holds exactly `limit` live documents; so an overwrite is never refused and a tenant
   below its limit is never refused *)
Theorem C14_never_refused_below_limit :
  forall (cfg : qcfg) (es : list qev) (t : N) (it : qitem),
  item_admissible it = true ->
  let ts := tget (qfinal cfg es) t in
  (snd (handle cfg t ts (QInsert it)) = QErrExhausted
   <-> (mem (qi_id it) (t_live ts) = false /\ len (t_live ts) = q_limit cfg t)).
Proof. intros cfg es t it Ha ts. apply insert_refused_iff; [apply qfinal_good|exact Ha]. Qed.

(* ---- interleaving model, ANY NUMBER of concurrent calls of one tenant: a list of calls, each an Insert,
   BulkInsert, BulkLoadHnsw, Delete or BatchDelete that has just arrived (same or different ids,
   accepted or engine-rejected vectors, duplicates in batches); the scheduler picks any call at every
   step (a blocked or finished call's turn is a no-op).  At EVERY instant of EVERY schedule:
     count = |live| + dsum   where dsum = the reservations / not yet applied decrements of the calls
                              currently inside their critical sections (gdebt),
     |live| <= count <= limit,  live has no duplicates,
     a call is inside its critical section iff it holds the mutex (so at most one is),
     whenever the mutex is free the count is exact;
   and when every call has returned the count is exact and the mutex is free. *)
Theorem C14_many_calls :
  forall (limit count : N) (live : list N) (ths : list thr) (sched : list nat),
  NoDup live -> count = len live -> count <= limit -> Forall fresh ths ->
  let c := mrun limit sched (mstart count live ths) in
  (sh_count (m_sh c) = len (sh_live (m_sh c)) + dsum (sh_live (m_sh c)) (m_ths c)
   /\ len (sh_live (m_sh c)) <= sh_count (m_sh c) /\ sh_count (m_sh c) <= limit /\ NoDup (sh_live (m_sh c))
   /\ (forall j x, nth_error (m_ths c) j = Some x -> (gin_cs x = true <-> sh_mutex (m_sh c) = Some j))
   /\ (sh_mutex (m_sh c) = None -> sh_count (m_sh c) = len (sh_live (m_sh c))))
  /\ (mquiescent c = true -> sh_count (m_sh c) = len (sh_live (m_sh c)) /\ sh_mutex (m_sh c) = None).
Proof.
  intros limit count live ths sched Hn Hc Hl Hf c.
  destruct (mrun_inv limit sched _ (many_inv_start limit count live ths Hn Hc Hl Hf)) as [I Il]. fold c in I, Il.
  destruct (minv_free _ _ I) as [F1 F2]. destruct I as [Ind [Ic [Iall _]]].
  split.
  - split; [exact Ic|]. split; [lia|]. split; [exact Il|]. split; [exact Ind|]. split; [|exact F1].
    intros j x Hjx. rewrite (proj2 (Iall j x Hjx)). apply held_iff.
  - intros Q. apply F2. intros x Hx. apply tdone_outside. unfold mquiescent in Q. rewrite forallb_forall in Q. exact (Q x Hx).
Qed.

(* ---- any number of tenants, any number of calls each: every call works on its own tenant's counter,
   documents and mutex; for EVERY tenant t the same invariant holds with dsum taken over t's own calls
   (`view t` shows another tenant's call as an idle one) *)
Theorem C14_many_tenants :
  forall (limit : N -> N) (w0 : N -> shared) (ths : list (N * thr)) (sched : list nat),
  (forall t, NoDup (sh_live (w0 t)) /\ sh_count (w0 t) = len (sh_live (w0 t)) /\ sh_count (w0 t) <= limit t
             /\ sh_mutex (w0 t) = None) ->
  Forall (fun p => fresh (snd p)) ths ->
  let c := wrun limit sched (mkW w0 ths) in
  forall t,
    (sh_count (w_sh c t) = len (sh_live (w_sh c t)) + dsum (sh_live (w_sh c t)) (map (view t) (w_ths c))
     /\ len (sh_live (w_sh c t)) <= sh_count (w_sh c t) /\ sh_count (w_sh c t) <= limit t
     /\ NoDup (sh_live (w_sh c t))
     /\ (sh_mutex (w_sh c t) = None -> sh_count (w_sh c t) = len (sh_live (w_sh c t))))
    /\ (wquiescent c = true -> sh_count (w_sh c t) = len (sh_live (w_sh c t)) /\ sh_mutex (w_sh c t) = None).
Proof.
  intros limit w0 ths sched H0 Hf c t.
  destruct (wrun_inv limit sched _ (winv_start limit w0 ths H0 Hf) t) as [I Il]. fold c in I, Il.
  destruct (minv_free _ _ I) as [F1 F2]. destruct I as [Hn [Hc _]].
  split; [split; [exact Hc|]; split; [lia|]; split; [exact Il|]; split; [exact Hn|exact F1]|].
  intros Q. apply F2. intros x Hx. apply in_map_iff in Hx. destruct Hx as [[v th] [E Hin]]. subst x.
  unfold view. cbn. destruct (v =? t); [|reflexivity]. apply tdone_outside.
  unfold wquiescent in Q. rewrite forallb_forall in Q. apply (Q (v, th) Hin).
Qed.
(* a step of a call of tenant u leaves every other tenant's counter, documents and mutex untouched *)
Theorem C14_other_tenants_untouched :
  forall limit c i u th t,
  nth_error (w_ths c) i = Some (u, th) -> t <> u -> w_sh (wstep limit c i) t = w_sh c t.
Proof.
  intros limit c i u th t Hi Ht. unfold wstep. rewrite Hi.
  destruct (tstep (limit u) i (w_sh c u) th) as [[sh th']|]; [|reflexivity].
  cbn. unfold wset. apply N.eqb_neq in Ht. rewrite Ht. reflexivity.
Qed.

(* ANY two calls out of Insert, BulkInsert, BulkLoadHnsw, Delete, BatchDelete of
   one tenant (same or different ids, accepted or engine-rejected vectors, duplicates in batches),
   EVERY schedule: at every instant  |live| <= count <= limit;  when both calls have returned the
   count is exact and the mutex is free.  This covers overwrite || delete, bulk_insert || delete,
   bulk_load(new or existing id) || delete, insert(new id) || delete and delete || batch_delete, the
   pairs on which the protocol before /repo 3784711 drifted. *)
Theorem C14_pairs :
  forall (limit count : N) (live : list N) (a b : thr) (sched : list bool),
  NoDup live -> count = len live -> count <= limit -> fresh a -> fresh b ->
  let c := crun limit sched (cstart count live a b) in
  (final_live c <= final_count c /\ final_count c <= limit /\ NoDup (sh_live (c_sh c)))
  /\ (quiescent c = true -> final_count c = final_live c /\ sh_mutex (c_sh c) = None).
Proof.
  intros limit count live a b sched Hn Hc Hl Fa Fb c.
  pose proof (C14_many_calls limit count live [a; b] (map (fun w : bool => if w then 1 else 0)%nat sched) Hn Hc Hl
                (Forall_cons _ Fa (Forall_cons _ Fb (Forall_nil _)))) as M.
  cbv zeta in M. change (mstart count live [a; b]) with (to_m (cstart count live a b)) in M.
  rewrite <- crun_sim in M. fold c in M. unfold to_m in M. cbn [m_sh m_ths] in M.
  destruct M as [[_ [A [B [C _]]]] Q]. unfold final_live, final_count. split; [repeat split; assumption|].
  intros Qc. apply Q. unfold mquiescent. cbn [forallb m_ths]. unfold quiescent in Qc. rewrite andb_true_r. exact Qc.
Qed.
(* what `fresh` ranges over: every kind of write call of the CURRENT protocol, just arrived *)
Theorem C14_pairs_cover_all_calls :
  forall id ok rest items ids,
  fresh (TI (istart id ok)) /\ fresh (TBI (istart id ok) rest) /\ fresh (TL (lstart items))
  /\ fresh (TD (dstart id)) /\ fresh (TB (bstart ids)).
Proof.
  intros. unfold fresh. repeat split.
  - left. eauto.
  - right. left. eauto.
  - right. right. left. eauto.
  - right. right. right. left. eauto.
  - right. right. right. right. eauto.
Qed.

(* ---- REGRESSION DOCUMENTATION (not claims about the current code): the OLD protocol, in which
   Delete / BatchDelete ran without the quota mutex (dstart_old / bstart_old), drifts: a schedule from an
   exact state that ends, both calls returned, with the count ONE SHORT of the live documents, so the
   next new id is admitted past the limit.  Reproduced on the real binary before the repair
   (52 of 674 race repetitions); see known_findings.json `fixed:` 3784711. *)
Definition drifts (a b : thr) : Prop :=
  exists (limit count : N) (live : list N) (sched : list bool),
    count = len live /\ count <= limit /\
    let c := crun limit sched (cstart count live a b) in
    quiescent c = true /\ final_count c + 1 = final_live c.

Example C14_old_protocol_overwrite_delete_drift : drifts (TI (istart 1 true)) (TD (dstart_old 1)).
Proof. exists 2, 2, [1; 2], w_overwrite_delete. repeat split; vm_compute; congruence. Qed.
Example C14_old_protocol_bulk_insert_delete_drift : drifts (TBI (istart 1 true) []) (TD (dstart_old 1)).
Proof. exists 2, 2, [1; 2], w_overwrite_delete. repeat split; vm_compute; congruence. Qed.
Example C14_old_protocol_bulk_load_overwrite_delete_drift : drifts (TL (lstart [(1, true)])) (TD (dstart_old 1)).
Proof. exists 2, 2, [1; 2], w_load_over_delete. repeat split; vm_compute; congruence. Qed.
Example C14_old_protocol_bulk_load_new_delete_drift : drifts (TL (lstart [(1, true)])) (TD (dstart_old 1)).
Proof. exists 2, 1, [2], w_load_new_delete. repeat split; vm_compute; congruence. Qed.
Example C14_old_protocol_insert_new_delete_drift : drifts (TI (istart 1 true)) (TD (dstart_old 1)).
Proof. exists 2, 1, [2], w_insert_new_delete. repeat split; vm_compute; congruence. Qed.
Example C14_old_protocol_delete_batch_delete_drift : drifts (TB (bstart_old [1])) (TD (dstart_old 1)).
Proof. exists 2, 2, [1; 2], w_delete_batch. repeat split; vm_compute; congruence. Qed.

(* a history with limit 2 for tenant 0 (cosine): fill, refusal of a new id, overwrite admitted,
   engine-rejected zero vector released, bulk load with a duplicate new id and an engine-rejected item, batch delete
   with a duplicate and an absent id, restart, probe *)
Definition ex_cfg : qcfg := mkQCfg (fun t => if t =? 0 then 2 else 5) true.
Definition ex_history : list qev :=
  [ QCall 0 (QInsert (mkQItem 1 VGood 1)); QCall 1 (QInsert (mkQItem 1 VGood 1));
    QCall 0 (QInsert (mkQItem 2 VGood 2)); QCall 0 (QInsert (mkQItem 3 VGood 1));
    QCall 0 (QInsert (mkQItem 1 VGood 3)); QCall 0 (QDelete 2); QCall 0 (QInsert (mkQItem 3 VZero 1));
    QCall 0 (QBulkLoad [mkQItem 4 VGood 1; mkQItem 4 VGood 2; mkQItem 1 VWrongDim 1]);
    QCall 0 (QProbe 9); QCall 0 (QBatchDeleteIds [4; 4; 7]); QRestart; QCall 0 (QProbe 9);
    QCall 0 (QBulkLoad [mkQItem 6 VGood 1; mkQItem 7 VGood 1]) ].
Example C14_nonvacuous_seq :
  snd (qrun_from ex_cfg [] ex_history)
  = [ QOkInsert 1 0; QOkInsert 1 0; QOkInsert 1 0; QErrExhausted; QOkInsert 1 0; QOkExisted true; QErrInternal;
      QOkLoad 2 1; QOkProbe true; QOkBatch 1; QOkRestart; QOkProbe false; QErrExhausted ]
  /\ t_count (tget (qfinal ex_cfg ex_history) 0) = 1 /\ t_live (tget (qfinal ex_cfg ex_history) 0) = [1].
Proof. vm_compute. auto. Qed.
(* the hypotheses of C14_pairs are satisfiable and both calls do return under a fair schedule; here the
   second insert of a different new id is refused because the first one took the last slot *)
Example C14_nonvacuous_pairs :
  let c := crun 2 (repeat false 8 ++ repeat true 8) (cstart 1 [7] (TI (istart 1 true)) (TI (istart 2 true))) in
  quiescent c = true /\ final_count c = 2 /\ final_live c = 2
  /\ match c_b c with TI x => i_refused x | _ => false end = true.
Proof. vm_compute. auto. Qed.
(* overwrite || delete on the schedule prefix that made the old protocol drift: the delete now blocks
   on the mutex until the overwrite has unlocked; both return, the count is exact *)
Example C14_nonvacuous_overwrite_delete :
  let c := crun 2 ([false; false; true; true; true] ++ repeat false 6 ++ repeat true 6)
                (cstart 2 [1; 2] (TI (istart 1 true)) (TD (dstart 1))) in
  quiescent c = true /\ final_count c = 1 /\ final_live c = 1.
Proof. vm_compute. auto. Qed.

(* three calls of one tenant at limit 2 with one live document: overwrite of 1, delete of 1, insert of
   a new id 3, under a round-robin schedule; all return, the count is exact *)
Example C14_nonvacuous_many_calls :
  let c := mrun 2 (concat (repeat [0; 1; 2]%nat 30))
                (mstart 1 [1] [TI (istart 1 true); TD (dstart 1); TI (istart 3 true)]) in
  mquiescent c = true /\ sh_count (m_sh c) = len (sh_live (m_sh c)) /\ sh_mutex (m_sh c) = None
  /\ Forall fresh [TI (istart 1 true); TD (dstart 1); TI (istart 3 true)].
Proof.
  intro c. vm_compute in c. subst c. repeat split.
  constructor; [left; eauto|]. constructor; [right; right; right; left; eauto|]. constructor; [left; eauto|constructor].
Qed.

Print Assumptions C14_count_exact_seq.
Print Assumptions C14_never_above_limit.
Print Assumptions C14_never_refused_below_limit.
Print Assumptions C14_many_calls.
Print Assumptions C14_many_tenants.
Print Assumptions C14_other_tenants_untouched.
Print Assumptions C14_pairs.
Print Assumptions C14_pairs_cover_all_calls.
Print Assumptions C14_old_protocol_overwrite_delete_drift.
