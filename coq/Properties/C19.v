(* C19 — rate limits bound admitted traffic.
   The events of `crun` are the atomic, mutex-protected bucket steps of any number of concurrent
   check_limit calls in ANY interleaving (Model/RateLimit.v); `Tick dt` is the passage of time. *)
From Coq Require Import QArith List NArith ZArith.
From Kyro Require Import Model.RateLimit Proofs.RateLimitProofs.
Import ListNotations.
Open Scope Q_scope.

(* Per-tenant bound: admitted <= burst capacity + rate * interval, for every interleaving. *)
Theorem C19_tenant_bound : forall (g : option N) (evs : list ev) (s : cstate) (t : N) (b : bucket),
  crun (cinit g) evs = Some s ->
  t_get (l_tenants (c_lim s)) t = Some b ->
  qn (admitted_t (c_calls s) t) <= b_cap b + b_rate b * elapsed evs.
Proof.
  intros g evs s t b Hrun Hb. destruct (crun_init _ _ _ Hrun) as [Hinv Hnow].
  rewrite <- Hnow. apply tenant_bound_from_inv; assumption.
Qed.

(* A tenant that has no bucket has been admitted nothing. *)
Theorem C19_tenant_none : forall (g : option N) (evs : list ev) (s : cstate) (t : N),
  crun (cinit g) evs = Some s ->
  t_get (l_tenants (c_lim s)) t = None -> admitted_t (c_calls s) t = 0%nat.
Proof. intros g evs s t Hrun Hn. apply tenant_none_from_inv; [apply (crun_init _ _ _ Hrun)|exact Hn]. Qed.

(* Global bound over all tenants together. *)
Theorem C19_global_bound : forall (q : N) (evs : list ev) (s : cstate) (g : bucket),
  crun (cinit (Some q)) evs = Some s ->
  l_global (c_lim s) = Some g ->
  qn (admitted_all (c_calls s)) <= b_cap g + b_rate g * elapsed evs.
Proof.
  intros q evs s g Hrun Hg. destruct (crun_init _ _ _ Hrun) as [Hinv Hnow].
  rewrite <- Hnow. apply global_bound_from_inv; assumption.
Qed.

(* A request refused by the global limit does not consume the tenant's own budget. *)
Theorem C19_refund_neutral : forall l t qps b g l',
  t_get (l_tenants l) t = Some b -> l_global l = Some g ->
  bucket_ok b (l_now l) ->
  Qle_bool 1 (b_tokens (refill b (l_now l))) = true ->
  Qle_bool 1 (b_tokens (refill g (l_now l))) = false ->
  check_limit l t qps = (l', false) ->
  exists b', t_get (l_tenants l') t = Some b' /\
             b_tokens b' == b_tokens (refill b (l_now l)) /\ b_cap b' = b_cap b.
Proof. exact refund_neutral. Qed.

(* A tenant below its rate is not refused while the global budget has room. *)
Theorem C19_no_starvation : forall l t qps b,
  t_get (l_tenants l) t = Some b ->
  Qle_bool 1 (b_tokens (refill b (l_now l))) = true ->
  (forall g, l_global l = Some g -> Qle_bool 1 (b_tokens (refill g (l_now l))) = true) ->
  snd (check_limit l t qps) = true.
Proof.
  intros l t qps b Hb Ht Hg. unfold check_limit. rewrite Hb. unfold try_consume. rewrite Ht.
  cbn [negb]. destruct (l_global l) as [g|]; [|reflexivity].
  rewrite (Hg g eq_refl). reflexivity.
Qed.

Theorem C19_fresh_tenant : forall l t qps,
  t_get (l_tenants l) t = None -> (1 <= qps)%N ->
  (forall g, l_global l = Some g -> Qle_bool 1 (b_tokens (refill g (l_now l))) = true) ->
  snd (check_limit l t qps) = true.
Proof. exact fresh_tenant_full. Qed.

(* Non-vacuity: a concrete two-caller interleaving with a refund is a run of the semantics, admits
   exactly 1 request for tenant 7 and the bound is tight there (cap 1, no time elapsed). *)
Definition ex_evs : list ev :=
  [TTry 0 7 1; TTry 1 8 5; GTry 1; GTry 0; Refund 0; Tick (1#2); TTry 2 7 1; GTry 2]%N.

Example C19_nonvacuous :
  exists s, crun (cinit (Some 1%N)) ex_evs = Some s /\
            admitted_t (c_calls s) 8%N = 1%nat /\ admitted_t (c_calls s) 7%N = 0%nat /\
            admitted_all (c_calls s) = 1%nat.
Proof. eexists. split; [vm_compute; reflexivity|]. vm_compute. auto. Qed.

Print Assumptions C19_tenant_bound.
Print Assumptions C19_tenant_none.
Print Assumptions C19_global_bound.
Print Assumptions C19_refund_neutral.
Print Assumptions C19_no_starvation.
Print Assumptions C19_fresh_tenant.
