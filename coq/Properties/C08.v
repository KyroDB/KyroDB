(* C08 — no interleaving of concurrent API calls can deadlock.  Proofs live in
   Proofs/LocksProofs.v, the model in Model/Locks.v (parking_lot Mutex + writer-preferring RwLock,
   any number of threads, any schedule).  The per-run instance (the lock programs recorded from the
   real engine by the patched parking_lot) is coq/gen/LockProgs_gen.v + coq/gen/LockInstance_gen.v,
   rewritten and re-checked by checks/c08.py on every run. *)
From Coq Require Import List NArith Bool Arith Lia.
From Kyro Require Import Model.Locks Proofs.LocksProofs.
Import ListNotations.

(* The general theorem, proved once: programs that are well bracketed and request locks in strictly
   increasing rank (TryAcq never blocks and is exempt) cannot deadlock — in every reachable state of
   every schedule, for any number of threads, either all threads are done or some thread can step. *)
Theorem deadlock_free_of_rank : forall (rank : lock -> nat) (progs : list prog),
  Forall well_bracketed progs -> Forall (rank_increasing rank) progs ->
  forall sched st, exec progs sched = Some st -> all_done st = false ->
  exists tid st', thread_step st tid = Some st'.
Proof.
  intros rank progs Hwb Hri sched st Hex Hnd.
  apply (progress_step rank); [eapply tinv_exec; eassumption|exact Hnd].
Qed.

(* Reflective form: one boolean, decided by vm_compute on the generated programs, gives deadlock
   freedom for ANY number of client threads each issuing ANY sequence of the checked calls. *)
Theorem C08_family_of_check : forall (rank : lock -> nat) (calls : list prog),
  all_ok rank calls = true -> deadlock_free_family calls.
Proof. exact deadlock_free_family_of_check. Qed.

(* ... and every reachable state can be run to completion (no dead end: some schedule finishes all threads). *)
Theorem C08_completes : forall (rank : lock -> nat) (ps : list prog),
  all_ok rank ps = true ->
  forall sched st, exec ps sched = Some st ->
  exists sched' st', run st sched' = Some st' /\ all_done st' = true.
Proof. exact completes_of_rank. Qed.

(* non-vacuity: a small program set with nesting, an upgrade, a downgrade and try-locks *)
Definition ex_calls : list prog :=
  [ [Acq 1 Read; Acq 2 Write; Rel 2; Rel 1];
    [Acq 1 Upgradable; Upgrade 1; Acq 3 Mutex; Rel 3; Downgrade 1 Read; Rel 1];
    [TryAcq 2 Write; Acq 3 Mutex; Rel 3; Rel 2];
    [Acq 3 Mutex; TryAcq 1 Write; Rel 1; Rel 3] ]%N.

Example C08_example_ok :
  lock_order_ok ex_calls = true /\ all_ok (topo_rank ex_calls) ex_calls = true /\
  deadlock_free_family ex_calls.
Proof.
  split; [vm_compute; reflexivity|]. split; [vm_compute; reflexivity|].
  apply C08_family_of_check with (rank := topo_rank ex_calls). vm_compute. reflexivity.
Qed.

(* the HotTier inversion (lock 1 = documents, lock 2 = stats) *)
Definition hot_insert : prog := [Acq 1 Write; Rel 1; Acq 2 Write; Acq 1 Read; Rel 1; Rel 2]%N.
Definition hot_delete : prog := [Acq 1 Write; Acq 2 Write; Rel 2; Rel 1]%N.
Definition hot_get    : prog := [Acq 1 Read; Acq 2 Write; Rel 2; Rel 1]%N.
Definition hot_writer : prog := [Acq 1 Write; Rel 1]%N.

(* the static check rejects it, no rank function exists, ... *)
Example C08_inversion_rejected : lock_order_ok [hot_insert; hot_delete] = false.
Proof. vm_compute. reflexivity. Qed.

Example C08_inversion_no_rank : forall rank, all_ok rank [hot_insert; hot_delete] = false.
Proof.
  intro rank. unfold all_ok. cbn [forallb].
  destruct (prog_ok rank hot_insert) eqn:E1; [|reflexivity].
  destruct (prog_ok rank hot_delete) eqn:E2; [exfalso|reflexivity].
  unfold prog_ok in *. apply andb_true_iff in E1 as [_ E1]. apply andb_true_iff in E2 as [_ E2].
  unfold hot_insert in E1; unfold hot_delete in E2. cbn -[Nat.ltb] in E1, E2.
  rewrite !andb_true_r in E1, E2. apply Nat.ltb_lt in E1, E2. lia.
Qed.

(* ... and two threads deadlock in the model: insert holds stats and waits for documents, delete
   holds documents and waits for stats. *)
Example C08_inversion_deadlocks :
  exists sched st, exec [hot_insert; hot_delete] sched = Some st /\ deadlocked st = true.
Proof. exists [0;0;0;0;0;1;1], (match exec [hot_insert; hot_delete] [0;0;0;0;0;1;1] with Some s => s | None => [] end).
  vm_compute. split; reflexivity. Qed.

(* Writer preference: insert and get alone share `documents` as readers, but with a third thread
   queued for the write lock the reader behind it is blocked and the three deadlock. *)
Example C08_writer_preference_deadlocks :
  exists sched st, exec [hot_insert; hot_get; hot_writer] sched = Some st /\ deadlocked st = true.
Proof. exists [0;0;0;0;0;1;2], (match exec [hot_insert; hot_get; hot_writer] [0;0;0;0;0;1;2] with Some s => s | None => [] end).
  vm_compute. split; reflexivity. Qed.

Print Assumptions deadlock_free_of_rank.
Print Assumptions C08_family_of_check.
Print Assumptions C08_completes.
Print Assumptions C08_example_ok.
Print Assumptions C08_inversion_deadlocks.
