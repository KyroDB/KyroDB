(* C20 — caches and the recent-write tier stay within their configured bounds (document cache and
   recent-write tier parts over Model/Tiered.v; the query-result cache bound comes from Proofs/QCacheInv.v). *)
From Coq Require Import List NArith ZArith Bool Arith Lia.
From Kyro Require Import Model.TMap Model.Tiered Proofs.TieredProofs.
From Kyro Require Model.QCache Proofs.QCacheInv Proofs.TMapFacts.
Import ListNotations.

(* the document cache (both sub-caches under the A/B splitter) never exceeds its capacity, in every
   state reachable by ANY history — cache pokes and mirror pokes included *)
Theorem C20_l1a_bound : forall (digest : vec -> dgst) (valid : vec -> bool),
  (forall a b : vec, digest a = digest b -> a = b) ->
  forall (c : config) (docs : list (N * vec * meta)) (ops : list op),
  1 <= cap_a c -> 1 <= cap_b c ->
  length (l1a (run digest valid c (init docs) ops)) <= cap_a c /\
  length (l1b (run digest valid c (init docs) ops)) <= cap_b c.
Proof. intros digest valid _ c docs ops Ha Hb. apply l1a_bound. split; assumption. Qed.

(* capacity 0 breaks the bound (VectorCache::insert evicts only when something is there to evict);
   config.rs `validate` refuses capacity 0 *)
Example C20_capacity_zero_unbounded :
  let c := mkCfg 0 1 false 100 4 in
  length (l1a (run id_digest all_valid c (init []) [OInsert 1%N [1%Z] []; OQuery true 1%N])) = 1.
Proof. vm_compute. reflexivity. Qed.

(* the recent-write tier is within its hard limit whenever insert returns (Ok or Err): for EVERY
   state without orphans, whatever its current size ... *)
Theorem C20_hot_bound_after_insert : forall (digest : vec -> dgst) (valid : vec -> bool)
  (c : config) (s : state) (id : N) (v : vec) (m : meta),
  1 <= hard c ->
  no_orphan s ->
  length (hot (fst (step digest valid c s (OInsert id v m)))) <= hard c.
Proof.
  intros digest valid c s id v m Hh NO. cbn [step]. rewrite Kyro.Proofs.ListFacts.fst_let.
  destruct (insert_no_orphan digest valid c s id v m NO) as (h1 & H1 & _ & _ & ->).
  pose proof (Kyro.Proofs.TMapFacts.length_remove_le id h1) as L.
  destruct H1 as [->|[-> H1]]; destruct (valid v); unfold put; cbn [length] in *; lia.
Qed.

(* ... hence after every insert of every API history (orphans are unreachable, C04_api_no_orphan) *)
Theorem C20_hot_bound_api : forall (digest : vec -> dgst) (valid : vec -> bool),
  (forall a b : vec, digest a = digest b -> a = b) ->
  forall (c : config) (docs : list (N * vec * meta)) (ops : list op) (s : state) (id : N) (v : vec) (m : meta),
  1 <= hard c ->
  run_guarded digest valid c (init docs) ops = Some s ->
  length (hot (fst (step digest valid c s (OInsert id v m)))) <= hard c.
Proof.
  intros digest valid _ c docs ops s id v m Hh H. apply C20_hot_bound_after_insert; [exact Hh|].
  apply (run_guarded_refines digest valid c ops (init docs) _ s (init_no_orphan docs) (fun k => eq_refl) H).
Qed.

(* Known class (needs harness-planted state, unreachable by the API): orphans whose payload the cold
   tier rejects cannot be repaired by the emergency drain; reconcile re-inserts them, and insert
   then adds its own entry past the hard limit. *)
Definition excess_cfg := mkCfg 1 1 false 100 2.
Definition excess_ops : list op :=
  [OPokeHot 3%N [1%Z] [] (0%N, [1%Z]); OPokeHot 4%N [2%Z] [] (0%N, [2%Z]);
   OPokeHot 0%N [1%Z; 0%Z; 0%Z; 0%Z] [] (1%N, [1%Z; 0%Z; 0%Z; 0%Z])].
Theorem C20_hot_bound_orphans_refuted :
  let s := run id_digest dim4_valid excess_cfg (init [(0%N, [1%Z; 0%Z; 0%Z; 0%Z], [])]) excess_ops in
  ~ no_orphan s /\
  step id_digest dim4_valid excess_cfg s (OInsert 1%N [0%Z; 1%Z; 0%Z; 0%Z] []) =
    (fst (step id_digest dim4_valid excess_cfg s (OInsert 1%N [0%Z; 1%Z; 0%Z; 0%Z] [])), RBool true) /\
  length (hot (fst (step id_digest dim4_valid excess_cfg s (OInsert 1%N [0%Z; 1%Z; 0%Z; 0%Z] [])))) = 3.
Proof.
  cbv zeta. split; [|split; vm_compute; reflexivity].
  intros H. apply (H 3%N); vm_compute; congruence.
Qed.

(* whatever is evicted or drained stays readable with the same content: two states with the same
   canonical store answer every read identically, whatever their caches and mirror hold *)
Theorem C20_evicted_still_readable : forall (digest : vec -> dgst),
  (forall a b : vec, digest a = digest b -> a = b) ->
  forall (c : config) (s s' : state) (adm adm' : bool) (id : N) (ids : list N),
  cold s' = cold s ->
  option_map fst (snd (query digest c s' adm' id)) = option_map fst (snd (query digest c s adm id)) /\
  snd (get_doc digest c s' id) = snd (get_doc digest c s id) /\
  snd (get_emb digest c s' id) = snd (get_emb digest c s id) /\
  map strip (snd (bulk digest c s' true ids)) = map strip (snd (bulk digest c s true ids)).
Proof.
  intros digest Hinj c s s' adm adm' id ids C.
  assert (K : forall k, lookup k (cold_docs s') = lookup k (cold_docs s)) by (intros k; unfold cold_docs; rewrite C; reflexivity).
  destruct (reads_agree digest Hinj c s s' K adm adm' id ids) as (A & B & D & _ & _ & E). auto.
Qed.

(* Query-result cache (QueryHashCache, Model/QCache.v, tied to the real cache by the C07
   correspondence which also compares len() after every step): in every state reached by any
   sequence of cache operations (get, insert, conditional insert, invalidate_doc,
   invalidate_for_insert, clear, ...) the number of entries never exceeds the capacity (>= 1). *)
Theorem C20_qcache_bound : forall (cfg : Kyro.Model.QCache.config) (ops : list Kyro.Model.QCache.op),
  (1 <= Kyro.Model.QCache.c_cap cfg)%nat ->
  (length (Kyro.Model.QCache.s_entries
             (Kyro.Model.QCache.run_state cfg Kyro.Model.QCache.empty ops))
   <= Kyro.Model.QCache.c_cap cfg)%nat.
Proof. exact Kyro.Proofs.QCacheInv.len_bound. Qed.

(* Non-vacuity: a history at capacity 1 / hard limit 1 in which an eviction and an emergency drain
   both happen, and the evicted / drained documents are still answered. *)
Definition ex20_cfg := mkCfg 1 1 false 100 1.
Definition ex20_ops : list op :=
  [OInsert 1%N [1%Z] []; OQuery true 1%N; OInsert 2%N [2%Z] []; OQuery true 2%N].
Example C20_nonvacuous :
  exists s, run_guarded id_digest all_valid ex20_cfg (init []) ex20_ops = Some s /\
            map fst (l1a s) = [2%N] /\ map fst (hot s) = [2%N] /\ n_emerg (ctr s) = 1 /\
            snd (query id_digest ex20_cfg s false 1%N) = Some ([1%Z], TCold).
Proof. eexists. split; [vm_compute; reflexivity|]. vm_compute. auto. Qed.

Print Assumptions C20_l1a_bound.
Print Assumptions C20_hot_bound_after_insert.
Print Assumptions C20_hot_bound_api.
Print Assumptions C20_hot_bound_orphans_refuted.
Print Assumptions C20_evicted_still_readable.
Print Assumptions C20_qcache_bound.
