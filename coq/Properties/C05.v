(* C05 — per-document operations are linearizable under concurrency (PARTIAL: proved on the
   interleaving model Model/Conc05.v, whose atomic steps are the critical sections between lock
   releases of the real code; preemption INSIDE a lock-protected region and the memory ordering of
   atomics are not exhibited).  Proofs live in Proofs/Conc05Proofs.v.

   `crun digest hard (ginit sh0 threads) sched = Some g` (`hard` = the hot tier's hard limit): g is reached from ANY initial shared state sh0
   (arbitrary cold tier, arbitrary — even corrupt or orphaned — L1a cache and hot mirror) by ANY
   schedule `sched` of ANY number of threads, each running any list of API calls, interleaved at
   atomic-step granularity with environment pokes that overwrite cache / mirror entries arbitrarily.
   Scheduler steps are numbered from 0; `HRes t c cl r inv res` = call c of thread t returned r, its
   first atomic step was step inv and its last one step res.  The only premise about the outside
   world is injectivity of the 128-bit coherence digest (explicit hypothesis of every theorem). *)
From Coq Require Import List NArith ZArith Bool Arith Sorted Lia.
From Kyro Require Import Model.TMap Model.Tiered Model.Conc05 Proofs.Conc05Proofs.
Import ListNotations.

(* Every completed vector read (point read, cache-aware read, the vector of read-with-metadata, every
   entry of a bulk read) returns the canonical value of its id as of some scheduler step k inside its
   own [invocation, response] interval: gk is the state right after step k. *)
Theorem C05_read_has_lin_point :
  forall (digest : vec -> dgst) (hard : nat), (forall a b : vec, digest a = digest b -> a = b) ->
  forall sh0 threads sched g,
    crun digest hard (ginit sh0 threads) sched = Some g ->
    forall t c cl r inv res id val,
      In (HRes t c cl r inv res) (g_hist g) -> In (id, val) (vec_components r) ->
      exists k gk, inv <= k <= res /\
        crun digest hard (ginit sh0 threads) (firstn (S k) sched) = Some gk /\
        option_map c_vec (lookup id (s_cold (g_sh gk))) = val.
Proof.
  intros digest hard Hinj sh0 threads sched g Hrun t c cl r inv res id val Hres Hcomp.
  destruct (obs_lin_point digest hard Hinj _ _ _ _ _ _ _ _ _ _ Hrun Hres) as (F & (Jv & _ & _) & Hpt).
  destruct (Jv _ _ Hcomp) as (x & Hin & Ex). destruct (Hpt _ _ Hin) as (k & gk & Hk & Hr & Hl).
  exists k, gk. rewrite Hl. auto.
Qed.

(* The metadata component has a linearisation point of its own (in general a DIFFERENT step). *)
Theorem C05_meta_has_lin_point :
  forall (digest : vec -> dgst) (hard : nat), (forall a b : vec, digest a = digest b -> a = b) ->
  forall sh0 threads sched g,
    crun digest hard (ginit sh0 threads) sched = Some g ->
    forall t c cl r inv res id m,
      In (HRes t c cl r inv res) (g_hist g) -> In (id, m) (meta_components r) ->
      exists k gk, inv <= k <= res /\
        crun digest hard (ginit sh0 threads) (firstn (S k) sched) = Some gk /\
        option_map c_meta (lookup id (s_cold (g_sh gk))) = Some m.
Proof.
  intros digest hard Hinj sh0 threads sched g Hrun t c cl r inv res id m Hres Hcomp.
  destruct (obs_lin_point digest hard Hinj _ _ _ _ _ _ _ _ _ _ Hrun Hres) as (F & (_ & Jm & _) & Hpt).
  destruct (Jm _ _ Hcomp) as (x & Hin & Ex). destruct (Hpt _ _ Hin) as (k & gk & Hk & Hr & Hl).
  exists k, gk. rewrite Hl. auto.
Qed.

(* Register linearizability.  L = the stamped log of all accesses to the canonical registers (writes
   at their cold.insert / cold.delete step, read observations at the cold-tier read steps) is
   (1) ordered by scheduler step, (2) accepted by the sequential per-id register specification started
   from the initial cold tier, (3) ends in the final cold tier, (4) contains, for every completed call,
   inside that call's own interval: an observation carrying the returned vector of each id it
   answered for (and one carrying the returned metadata), resp. the call's own write — an insert
   that answers Err after its cold-tier write took effect is linearised as a write —, and
   (5) contains no write other than those issued by an invoked insert/delete with those arguments and the
   REPAIR writes of an insert's emergency drain (drain_repair: the cold tier re-created from a drained
   mirror entry — see C05_drain_resurrects_deleted_refuted).
   Since stamps lie inside the intervals and L is ordered by stamp, L respects real-time order
   (C05_real_time_order); dropping unused observations keeps it accepted (C05_linearisation_subsequence),
   which yields the textbook one-point-per-operation linearisation.  Per id only: a bulk read is not
   atomic across ids.  The boolean answered by delete is not part of the specification. *)
Theorem C05_register_linearizable :
  forall (digest : vec -> dgst) (hard : nat), (forall a b : vec, digest a = digest b -> a = b) ->
  forall sh0 threads sched g,
    crun digest hard (ginit sh0 threads) sched = Some g ->
    let L := chron (g_log g) in
    StronglySorted (fun a b => fst a <= fst b) L /\
    reg_accepts (reg_of (s_cold sh0)) (map snd L) /\
    (forall id, reg_after (reg_of (s_cold sh0)) (map snd L) id = lookup id (s_cold (g_sh g))) /\
    (forall t c cl r inv res, In (HRes t c cl r inv res) (g_hist g) ->
       inv <= res /\
       (forall id val, In (id, val) (vec_components r) ->
          exists k x, In (k, LObs id x) L /\ inv <= k <= res /\ option_map c_vec x = val) /\
       (forall id m, In (id, m) (meta_components r) ->
          exists k x, In (k, LObs id x) L /\ inv <= k <= res /\ option_map c_meta x = Some m) /\
       call_linearised L cl inv res) /\
    (forall k id x, In (k, LW id x) L ->
       exists t c cl inv, In (HInv t c cl inv) (g_hist g) /\ inv <= k /\
                          (write_matches cl id x \/ drain_repair cl id x)).
Proof.
  intros digest hard Hinj sh0 threads sched g Hrun L.
  destruct (reachable_inv digest hard Hinj _ _ _ _ Hrun) as [_ Ires Iwr [_ _ Isorted Iacc Iafter]].
  split; [apply (SS_rev _ _ Isorted)|]. split; [exact Iacc|]. split; [exact Iafter|]. split.
  - intros t c cl r inv res Hres. exact (res_linearised _ _ _ _ _ _ _ Ires Hres).
  - intros k id x Hin. apply Iwr. apply in_rev. exact Hin.
Qed.

Theorem C05_real_time_order : forall (L : list lentry) e1 e2,
  StronglySorted (fun a b => fst a <= fst b) L -> In e1 L -> In e2 L -> fst e1 < fst e2 ->
  exists l1 l2 l3, L = l1 ++ e1 :: l2 ++ e2 :: l3.
Proof. exact sorted_before. Qed.

Theorem C05_linearisation_subsequence : forall (keep : lop -> bool) ops r,
  reg_accepts r ops -> reg_accepts r (filter (fun o => is_write o || keep o) ops).
Proof.
  intros keep. induction ops as [|[id x|id x] q IH]; intros r HA; cbn [filter is_write orb reg_accepts] in *; auto.
  destruct HA as [E HA]. destruct (keep (LObs id x)); cbn [reg_accepts]; auto.
Qed.

(* Never a vector that was not written — for runs without a drain repair write (client_writes_only). *)
Theorem C05_read_value_written :
  forall (digest : vec -> dgst) (hard : nat), (forall a b : vec, digest a = digest b -> a = b) ->
  forall sh0 threads sched g,
    crun digest hard (ginit sh0 threads) sched = Some g ->
    client_writes_only g ->
    forall t c cl r inv res id v,
      In (HRes t c cl r inv res) (g_hist g) -> In (id, Some v) (vec_components r) ->
      (exists rc, lookup id (s_cold sh0) = Some rc /\ c_vec rc = v) \/
      (exists t' c' m inv', In (HInv t' c' (CInsert id v m) inv') (g_hist g)).
Proof.
  intros digest hard Hinj sh0 threads sched g Hrun Hnorep t c cl r inv res id v Hres Hc.
  destruct (C05_register_linearizable digest hard Hinj _ _ _ _ Hrun) as (HS & HA & _ & Hcalls & Hwr).
  destruct (Hcalls _ _ _ _ _ _ Hres) as (_ & Hv & _ & _).
  destruct (Hv _ _ Hc) as (k & x & Hin & Hk & Ex).
  destruct x as [rc|]; cbn in Ex; [|discriminate]. inversion Ex; subst v.
  destruct (reg_accepts_obs_src _ _ _ _ HA (in_map snd _ _ Hin)) as [E|Hw].
  - left. exists rc. split; [symmetry; exact E | reflexivity].
  - right. apply in_map_snd in Hw as [kw Hw].
    destruct (Hnorep _ _ _ Hw) as (t' & c' & cl' & inv' & Hinv & _ & Hm).
    apply write_matches_some in Hm as [m ->]. exists t', c', m, inv'. exact Hinv.
Qed.

(* Never older than a write that completed before the read began; never a deleted document after its
   delete completed: the read returns the value of that write W or of a write that took effect after
   W and before the read responded.  CAUTION: that later write may be a drain REPAIR write, not a client
   write — see C05_read_after_completed_delete for the clause restricted to client writes and
   C05_drain_resurrects_deleted_refuted for the refutation of the unrestricted clause. *)
Theorem C05_read_sees_completed_write :
  forall (digest : vec -> dgst) (hard : nat), (forall a b : vec, digest a = digest b -> a = b) ->
  forall sh0 threads sched g,
    crun digest hard (ginit sh0 threads) sched = Some g ->
    forall tw cw clw rw invw resw t c cl r inv res id val,
      In (HRes tw cw clw rw invw resw) (g_hist g) ->
      ((exists v m, clw = CInsert id v m) \/ clw = CDelete id) ->
      In (HRes t c cl r inv res) (g_hist g) -> In (id, val) (vec_components r) ->
      resw < inv ->
      exists kW xW kw x,
        In (kW, LW id xW) (chron (g_log g)) /\ invw <= kW <= resw /\ write_matches clw id xW /\
        In (kw, LW id x) (chron (g_log g)) /\ kW <= kw <= res /\ option_map c_vec x = val.
Proof.
  intros digest hard Hinj sh0 threads sched g Hrun tw cw clw rw invw resw t c cl r inv res id val HW Hkind HR Hc Hlt.
  destruct (C05_register_linearizable digest hard Hinj _ _ _ _ Hrun) as (HS & HA & _ & Hcalls & _).
  destruct (Hcalls _ _ _ _ _ _ HW) as (_ & _ & _ & HLw).
  destruct (Hcalls _ _ _ _ _ _ HR) as (_ & Hv & _ & _).
  destruct (Hv _ _ Hc) as (k & x & Hin & Hk & Ex).
  destruct (linearised_write _ _ _ _ id HLw Hkind) as (kW & xW & HinW & HkW & HmW).
  destruct (last_write_before _ _ _ _ _ _ _ HS HA Hin HinW) as (kw & Hinw & Hkw); [lia|].
  exists kW, xW, kw, x. repeat split; auto; lia.
Qed.

(* the pairing clause of the property is REFUTED on the faithful model *)
(* (v, m) is a mixed pair for id: no version of id that was ever canonical — the initial one or one
   written during the run — has this vector together with this metadata *)
Definition mixed_pair (L : list lentry) (cold0 : list (N * crec)) (id : N) (v : vec) (m : meta) : Prop :=
  (forall rc, lookup id cold0 = Some rc -> ~ (c_vec rc = v /\ c_meta rc = m)) /\
  (forall k rc, In (k, LW id (Some rc)) L -> ~ (c_vec rc = v /\ c_meta rc = m)).

Definition wA : vec := [1%Z; 0%Z]. Definition wB : vec := [0%Z; 1%Z].
Definition nA : meta := [(0, 1)]%N. Definition nB : meta := [(0, 2)]%N.
(* document 7 = (wA, nA), version 1, mirrored in the hot tier (the state right after insert(7, wA, nA)) *)
Definition pair_sh0 : shared := mkSh [(7%N, mkC wA nA 1)] [] [(7%N, mkH wA nA (1%N, dg_id wA))].
(* thread 0: get_document_with_metadata(7) — metadata fetch; thread 1: insert(7, wB, nB) start to
   finish (9 steps); thread 0: hot probe (mirror now wB, token matches) — returns (wB, nA) *)
Definition pair_threads : list (list call) := [[CGetDoc 7]; [CInsert 7 wB nB]].
Definition pair_sched : list sitem := [Run 0] ++ repeat (Run 1) 9 ++ [Run 0; Run 0].
(* bulk_query_with_source([7]): snapshot + token check (vector wA is canonical), then the insert,
   then the metadata fetch — returns (wA, nB) *)
Definition bulk_threads : list (list call) := [[CBulk [7%N]]; [CInsert 7 wB nB]].
Definition bulk_sched : list sitem := [Run 0; Run 0] ++ repeat (Run 1) 9 ++ [Run 0].

Theorem C05_pairing_refuted :
  exists (digest : vec -> dgst) (hard : nat), (forall a b : vec, digest a = digest b -> a = b) /\
  exists sh0 threads sched g t c r inv res id v m,
    crun digest hard (ginit sh0 threads) sched = Some g /\
    In (HRes t c (CGetDoc id) r inv res) (g_hist g) /\ In (id, (v, m)) (pair_components r) /\
    mixed_pair (chron (g_log g)) (s_cold sh0) id v m.
Proof.
  (* hard limit 2: the mirror holds document 7 only, so the insert does not drain *)
  exists dg_id, 2. split; [intros a b H; exact H|].
  exists pair_sh0, pair_threads, pair_sched.
  destruct (crun dg_id 2 (ginit pair_sh0 pair_threads) pair_sched) as [g|] eqn:E; vm_compute in E; [|discriminate E].
  exists g, 0, 0, (RDoc 7 (Some (wB, nA))), 0, 11, 7%N, wB, nA. injection E as <-.
  split; [reflexivity|]. split; [left; reflexivity|]. split; [left; reflexivity|].
  apply no_pair_check. vm_compute. reflexivity.
Qed.

Theorem C05_pairing_refuted_bulk :
  exists (digest : vec -> dgst) (hard : nat), (forall a b : vec, digest a = digest b -> a = b) /\
  exists sh0 threads sched g t c ids r inv res id v m,
    crun digest hard (ginit sh0 threads) sched = Some g /\
    In (HRes t c (CBulk ids) r inv res) (g_hist g) /\ In (id, (v, m)) (pair_components r) /\
    mixed_pair (chron (g_log g)) (s_cold sh0) id v m.
Proof.
  exists dg_id, 2. split; [intros a b H; exact H|].
  exists pair_sh0, bulk_threads, bulk_sched.
  destruct (crun dg_id 2 (ginit pair_sh0 bulk_threads) bulk_sched) as [g|] eqn:E; vm_compute in E; [|discriminate E].
  exists g, 0, 0, [7%N], (RBulk [(7%N, Some (wA, nB))]), 0, 11, 7%N, wA, nB. injection E as <-.
  split; [reflexivity|]. split; [left; reflexivity|]. split; [left; reflexivity|].
  apply no_pair_check. vm_compute. reflexivity.
Qed.

(* ... and it HOLDS for every read outside that class: the returned vector and the returned metadata are
   each canonical at a step of the call's interval (kv, km), and when no write of that id took effect
   between those two steps they belong to one canonical record.  (The refuted class is exactly "a write
   of the same id lands between the metadata fetch and the vector's linearisation point".) *)
Theorem C05_pairing_without_interleaved_write :
  forall (digest : vec -> dgst) (hard : nat), (forall a b : vec, digest a = digest b -> a = b) ->
  forall sh0 threads sched g,
    crun digest hard (ginit sh0 threads) sched = Some g ->
    forall t c cl r inv res id v m,
      In (HRes t c cl r inv res) (g_hist g) -> In (id, (v, m)) (pair_components r) ->
      exists kv km xv xm,
        In (kv, LObs id xv) (chron (g_log g)) /\ In (km, LObs id xm) (chron (g_log g)) /\
        inv <= kv <= res /\ inv <= km <= res /\
        option_map c_vec xv = Some v /\ option_map c_meta xm = Some m /\
        ((forall kw xw, In (kw, LW id xw) (chron (g_log g)) -> ~ (Nat.min kv km <= kw <= Nat.max kv km)) ->
         exists rc, xv = Some rc /\ xm = Some rc /\ c_vec rc = v /\ c_meta rc = m).
Proof.
  intros digest hard Hinj sh0 threads sched g Hrun t c cl r inv res id v m Hres Hp.
  destruct (pair_split _ _ _ _ Hp) as [Hv Hm].
  destruct (C05_register_linearizable digest hard Hinj _ _ _ _ Hrun) as (_ & _ & _ & Hcalls & _).
  destruct (Hcalls _ _ _ _ _ _ Hres) as (_ & Jv & Jm & _).
  destruct (Jv _ _ Hv) as (kv & xv & Hinv & Hkv & Exv).
  destruct (Jm _ _ Hm) as (km & xm & Hinm & Hkm & Exm).
  exists kv, km, xv, xm. repeat (split; [assumption|]). intros Hno.
  assert (xv = xm) by (eapply (obs_same digest hard Hinj); eauto). subst xm.
  destruct xv as [rc|]; cbn in Exv, Exm; [|discriminate].
  exists rc. inversion Exv. inversion Exm. auto.
Qed.

(* "never a deleted document after its delete completed" is REFUTED on the faithful model *)
(* It holds in runs without a drain repair write ... *)
Theorem C05_read_after_completed_delete :
  forall (digest : vec -> dgst) (hard : nat), (forall a b : vec, digest a = digest b -> a = b) ->
  forall sh0 threads sched g,
    crun digest hard (ginit sh0 threads) sched = Some g ->
    client_writes_only g ->
    forall tw cw rw invw resw t c cl r inv res id v,
      In (HRes tw cw (CDelete id) rw invw resw) (g_hist g) ->
      In (HRes t c cl r inv res) (g_hist g) -> In (id, Some v) (vec_components r) ->
      resw < inv ->
      exists kW kw t' c' m inv',
        invw <= kW <= resw /\ kW <= kw <= res /\
        In (HInv t' c' (CInsert id v m) inv') (g_hist g) /\ inv' <= kw.
Proof.
  intros digest hard Hinj sh0 threads sched g Hrun Hcw tw cw rw invw resw t c cl r inv res id v HW HR Hc Hlt.
  destruct (C05_read_sees_completed_write digest hard Hinj _ _ _ _ Hrun _ _ _ _ _ _ _ _ _ _ _ _ id (Some v)
              HW (or_intror eq_refl) HR Hc Hlt) as (kW & xW & kw & x & _ & HkW & _ & Hinw & Hkw & Ex).
  destruct x as [rc|]; cbn in Ex; [|discriminate]. inversion Ex; subst v.
  destruct (Hcw _ _ _ Hinw) as (t' & c' & cl' & inv' & Hinv & Hle & Hm).
  apply write_matches_some in Hm as [m ->]. exists kW, kw, t', c', m, inv'. auto.
Qed.

(* ... and fails with one: hot_tier_hard_limit = 1, document 7 mirrored.  delete(7) performs its
   cold-tier delete (step 0) and is preempted before hot_tier.delete; insert(9, ..) of another client finds
   the hot tier at its hard limit, drains it (taking 7's mirror), finds no canonical record of 7 and
   "repairs" it with cold_tier.insert; the delete finishes and answers found = true (step 19); a point
   read of 7 invoked AFTERWARDS (step 20) returns the deleted vector, although no insert of id 7 was ever
   invoked. *)
Definition res_threads : list (list call) := [[CDelete 7]; [CInsert 9 wB nB]; [CQuery true 7]].
Definition res_sched : list sitem := [Run 0] ++ repeat (Run 1) 16 ++ repeat (Run 0) 3 ++ repeat (Run 2) 4.
Definition never_inserted (g : gstate) (id : N) : Prop :=
  forall t c i v m inv, In (HInv t c (CInsert i v m) inv) (g_hist g) -> i <> id.

Theorem C05_drain_resurrects_deleted_refuted :
  exists (digest : vec -> dgst) (hard : nat), (forall a b : vec, digest a = digest b -> a = b) /\
  exists sh0 threads sched g id v td cd invd resd tr cr ar invr resr,
    crun digest hard (ginit sh0 threads) sched = Some g /\
    In (HRes td cd (CDelete id) (RDel true) invd resd) (g_hist g) /\
    In (HRes tr cr (CQuery ar id) (RVec id (Some v)) invr resr) (g_hist g) /\
    resd < invr /\ never_inserted g id.
Proof.
  exists dg_id, 1. split; [intros a b H; exact H|].
  exists pair_sh0, res_threads, res_sched.
  destruct (crun dg_id 1 (ginit pair_sh0 res_threads) res_sched) as [g|] eqn:E; vm_compute in E; [|discriminate E].
  exists g, 7%N, wA, 0, 0, 0, 19, 2, 0, true, 20, 23. injection E as <-.
  split; [reflexivity|]. split; [cbn; tauto|]. split; [cbn; tauto|]. split; [repeat constructor|].
  intros t c i v m inv H ->. cbn in H.
  repeat (destruct H as [H|H]; [discriminate H|]). destruct H.
Qed.

(* Observation (not part of the read clauses): an insert can answer Err AFTER its cold-tier write took
   effect — a delete of the same id lands between the insert's cold.insert and its token read
   ("insert succeeded but cold tier has no canonical token").  The theorems above linearise such an
   insert as a write. *)
Definition err_threads : list (list call) := [[CInsert 7 wB nB]; [CDelete 7]].
Definition err_sched : list sitem := repeat (Run 0) 7 ++ repeat (Run 1) 4 ++ [Run 0].
Theorem C05_insert_err_after_effect_witness :
  exists g, crun dg_id 5000 (ginit pair_sh0 err_threads) err_sched = Some g /\
    In (HRes 0 0 (CInsert 7 wB nB) (RIns false) 0 11) (g_hist g) /\
    In (4, LW 7 (Some (mkC wB nB 2))) (g_log g) /\
    In (HRes 1 0 (CDelete 7) (RDel true) 7 10) (g_hist g).
Proof. eexists. split; [vm_compute; reflexivity|]. vm_compute. tauto. Qed.

(* three threads, two ids, a stale L1a entry, a corrupt mirror entry, environment pokes: a run of the
   semantics with seven completed calls, among them reads served from every tier *)
Definition nv_sh0 : shared :=
  mkSh [(7%N, mkC wA nA 3); (8%N, mkC wB nB 1)]
       [(7%N, mkL wB (2%N, dg_id wB)); (8%N, mkL wB (1%N, dg_id wB))]
       [(7%N, mkH wA nA (3%N, dg_id wB))].
Definition nv_threads : list (list call) :=
  [[CQuery true 8; CQuery true 7; CGetDoc 7];
   [CInsert 7 wB nA; CDelete 8];
   [CBulk [7; 8]%N; CGetEmb 8]].
Definition nv_sched : list sitem :=
  [Run 0; Run 0; Run 2; Run 1; Run 0; PokeHot 8 (Some (mkH wA nA (9%N, dg_id wA))); Run 2; Run 1; PokeL1 7 None;
   Run 0; Run 1; Run 2; Run 0; Run 1; Run 2; Run 0; Run 1; Run 2; Run 0; Run 1; Run 2; Run 0; Run 1; Run 2;
   Run 0; Run 1; Run 2; Run 0; Run 1; Run 0; Run 1; Run 1; Run 1; Run 1].

Definition is_res (e : hevent) : bool := match e with HRes _ _ _ _ _ _ => true | _ => false end.
Example C05_nonvacuous :
  exists g, crun dg_id 5000 (ginit nv_sh0 nv_threads) nv_sched = Some g /\
            length (filter is_res (g_hist g)) = 7 /\
            In (HRes 0 0 (CQuery true 8) (RVec 8 (Some wB)) 0 1) (g_hist g).
Proof. eexists. split; [vm_compute; reflexivity|]. vm_compute. tauto. Qed.

Print Assumptions C05_read_has_lin_point.
Print Assumptions C05_meta_has_lin_point.
Print Assumptions C05_register_linearizable.
Print Assumptions C05_real_time_order.
Print Assumptions C05_linearisation_subsequence.
Print Assumptions C05_read_value_written.
Print Assumptions C05_read_sees_completed_write.
Print Assumptions C05_pairing_refuted.
Print Assumptions C05_read_after_completed_delete.
Print Assumptions C05_drain_resurrects_deleted_refuted.
Print Assumptions C05_pairing_without_interleaved_write.
Print Assumptions C05_pairing_refuted_bulk.
Print Assumptions C05_insert_err_after_effect_witness.
