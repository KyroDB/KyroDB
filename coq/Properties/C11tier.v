(* C11 at the TieredEngine level — a filtered batch delete removes exactly the documents whose
   CANONICAL metadata matches the filter (Model/Tiered.v: filter_delete / opx / stepx / runx, next to the
   C04/C20 model of the same engine).
   TieredEngine::batch_delete_by_metadata_filter selects
       hot_tier.scan(matches over the MIRROR's metadata)  ∪  cold_tier.ids_for_metadata_filter(filter)
   and hands the union to batch_delete.  The union is exact only when every mirror entry carries the
   canonical metadata of its id; that is theorem (a), an invariant of all API histories.
   `digest` / `valid` as in Properties/C04.v. *)
From Coq Require Import List NArith ZArith Bool Arith.
From Kyro Require Import Model.TMap Model.Tiered Proofs.TieredProofs Proofs.TieredFilterProofs.
Import ListNotations.

(* (a) after ANY history of API operations — reads, insert, update_metadata (merge and replace), delete,
   batch_delete, bulk load, drains, audits, ticks, L1a cache pokes and the filtered delete itself; only
   harness-planted mirror entries are excluded — every hot-tier mirror entry has a canonical record
   and carries exactly that record's metadata *)
Theorem C11tier_mirror_meta_fresh : forall (digest : vec -> dgst) (valid : vec -> bool),
  (forall a b : vec, digest a = digest b -> a = b) ->
  forall (c : config) (docs : list (N * vec * meta)) (ops : list opx),
  forallb no_hot_poke_x ops = true ->
  let s := runx digest valid c (init docs) ops in
  forall (id : N) (h : hent), lookup id (hot s) = Some h ->
  exists r, lookup id (cold s) = Some r /\ h_meta h = c_meta r.
Proof.
  intros digest valid _ c docs ops G. cbv zeta.
  exact (runx_mfresh digest valid c ops (init docs) G (init_mfresh docs)).
Qed.

(* (b) in every such state the filtered delete removes, from both tiers, exactly the ids whose
   canonical metadata satisfies the filter, returns their number (each id once), and leaves every
   other canonical record (vector, metadata, version) and every other mirror entry untouched *)
Theorem C11tier_filter_delete_exact : forall (digest : vec -> dgst) (valid : vec -> bool),
  (forall a b : vec, digest a = digest b -> a = b) ->
  forall (c : config) (docs : list (N * vec * meta)) (ops : list opx) (f : tfilter),
  forallb no_hot_poke_x ops = true ->
  let s := runx digest valid c (init docs) ops in
  let r := stepx digest valid c s (OFilterDelete f) in
  let sel := fun id => match lookup id (cold s) with Some rc => tmatch f (c_meta rc) | None => false end in
  (forall id, lookup id (cold (fst r)) = if sel id then None else lookup id (cold s)) /\
  (forall id, lookup id (hot (fst r)) = if sel id then None else lookup id (hot s)) /\
  (exists L, NoDup L /\ (forall id, In id L <-> sel id = true) /\ snd r = RCount (Some (length L))).
Proof.
  intros digest valid _ c docs ops f G. cbv zeta. cbn [stepx].
  pose proof (runx_mfresh digest valid c ops (init docs) G (init_mfresh docs)) as F.
  destruct (filter_delete_exact_state c _ f F) as (A & B & (L & L1 & L2 & L3) & _).
  destruct (filter_delete c (runx digest valid c (init docs) ops) f) as [s1 n]. cbn [fst snd] in *.
  split; [exact A|]. split; [exact B|]. exists L. subst n. auto.
Qed.

(* the same, from ANY state whose mirror metadata is fresh (no reachability premise); the invariant is
   re-established *)
Theorem C11tier_filter_delete_exact_state : forall (c : config) (s : state) (f : tfilter),
  meta_fresh s ->
  let r := filter_delete c s f in
  (forall id, lookup id (cold (fst r)) = if canon_sel s f id then None else lookup id (cold s)) /\
  (forall id, lookup id (hot (fst r)) = if canon_sel s f id then None else lookup id (hot s)) /\
  (exists L, NoDup L /\ (forall id, In id L <-> canon_sel s f id = true) /\ snd r = length L) /\
  meta_fresh (fst r).
Proof. exact filter_delete_exact_state. Qed.

(* (c) regression witness.  VARIANT MODEL (not the code): the hot-tier half of update_metadata treats
   a replace like a merge (update_meta_mirror_merges).  History: insert a document with keys k0,k1
   (hot-resident); replace its metadata by {k1} (drops k0); filtered delete on Exact(k0).  In the
   variant the mirror still carries k0, the invariant (a) is broken and the filtered delete removes
   the document although its canonical metadata {k1} does not match (count 1); the faithful model
   on the same history selects nothing and the document survives. *)
Theorem C11tier_mirror_merge_variant_refuted :
  let s := runx_mirror_merges id_digest all_valid w_cfg (init []) w_hist in
  forallb no_hot_poke_x (w_hist ++ [OFilterDelete w_filter]) = true /\
  get_meta s 1%N = Some [(w_k1, 8%N)] /\
  canon_sel s w_filter 1%N = false /\
  stepx_mirror_merges id_digest all_valid w_cfg s (OFilterDelete w_filter) =
    (mkS [] [] [] [] (ctr s), RCount (Some 1)) /\
  ~ meta_fresh s /\
  let s0 := runx id_digest all_valid w_cfg (init []) w_hist in
  snd (stepx id_digest all_valid w_cfg s0 (OFilterDelete w_filter)) = RCount (Some 0) /\
  get_meta (fst (stepx id_digest all_valid w_cfg s0 (OFilterDelete w_filter))) 1%N = Some [(w_k1, 8%N)].
Proof.
  cbv zeta. split; [vm_compute; reflexivity|]. split; [vm_compute; reflexivity|].
  split; [vm_compute; reflexivity|]. split; [vm_compute; reflexivity|].
  split; [|split; vm_compute; reflexivity].
  intros F. specialize (F 1%N). vm_compute in F.
  destruct (F _ eq_refl) as [r [L M]]. inversion L; subst r. discriminate.
Qed.

(* Non-vacuity: the premises are satisfiable (identity digest; a poke-free history with two
   hot-resident documents, a key-dropping replace on one and a merge on the other, a forced drain in
   between), the reached state has a non-empty mirror, and the filtered delete of (b) on it removes
   exactly document 2 — the one whose canonical metadata still has k0=7 — and keeps document 1. *)
Definition nv_ops : list opx :=
  [OApi (OInsert 1%N [1%Z] [(0%N, 7%N); (1%N, 8%N)]);
   OApi (OInsert 2%N [2%Z] [(0%N, 7%N)]);
   OApi (OUpdMeta 1%N [(1%N, 8%N)] false);
   OApi (OUpdMeta 2%N [(1%N, 9%N)] true);
   OApi (OFlush true);
   OApi (OInsert 1%N [3%Z] [(1%N, 8%N)])].
Example C11tier_nonvacuous :
  (forall a b : vec, id_digest a = id_digest b -> a = b) /\
  forallb no_hot_poke_x nv_ops = true /\
  let s := runx id_digest all_valid w_cfg (init []) nv_ops in
  length (hot s) = 1 /\ length (cold s) = 2 /\
  let r := stepx id_digest all_valid w_cfg s (OFilterDelete (TAnd [TExact 0%N 7%N; TNot (TIn 1%N [8%N])])) in
  snd r = RCount (Some 1) /\ get_meta (fst r) 2%N = None /\ get_meta (fst r) 1%N = Some [(1%N, 8%N)].
Proof.
  split; [exact id_digest_inj|]. split; [vm_compute; reflexivity|]. vm_compute. auto.
Qed.

Print Assumptions C11tier_mirror_meta_fresh.
Print Assumptions C11tier_filter_delete_exact.
Print Assumptions C11tier_filter_delete_exact_state.
Print Assumptions C11tier_mirror_merge_variant_refuted.
Print Assumptions C11tier_nonvacuous.
