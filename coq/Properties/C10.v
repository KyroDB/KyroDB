(* C10 — tenants are isolated end to end.  Lemmas in Proofs/ServerProofs.v, Proofs/ServerNI.v and
   Proofs/TenantMapProofs.v; the model is Model/Server.v (auth enabled).  `idx_str` is u32::to_string (only its
   injectivity is used), `score` the f32 score function (uninterpreted). *)
From Coq Require Import List NArith ZArith Bool String Lia.
From Kyro Require Import Model.Server Proofs.ServerProofs Proofs.ServerNI Proofs.TenantMapProofs.
Import ListNotations.
Open Scope N_scope.

(* responses_of A cs rs: tenant A's answers in the response list rs of the calls cs, where a
   Search/BulkSearch answer is reduced to its status (hits and total_found are NOT compared: see
   C10_search_count_refuted) and FlushHotTier's documents_flushed is dropped (C10_flush_count_refuted).
   Everything else — found/not-found, vectors, metadata, counts, per-item results, /usage — is compared. *)
Definition responses_of (cfg : config) (A : N) (cs : list call) (rs : list resp) : list resp := sel cfg A cs rs.

(* Noninterference, for every history over the property's RPC list (Insert, BulkInsert, BulkLoadHnsw,
   Query, BulkQuery, Search, BulkSearch, UpdateMetadata, Delete, BatchDelete by ids / filter,
   FlushHotTier, GET /usage), any number of tenants, any interleaving: removing all calls of another
   tenant B does not change any of tenant A's answers — with the two exceptions made explicit by
   `responses_of` (Search-family hit lists/total_found, FlushHotTier's count), both refuted below.
   Premise `A is not an admin key`: an admin may read every tenant's usage by design. *)
Theorem C10_noninterference :
  forall (idx_str : N -> str) (score : Z -> Z),
  (forall a b, idx_str a = idx_str b -> a = b) ->
  forall (cfg : config) (A B : N) (cs : list call),
  (forall k ki, nget (c_keys cfg) k = Some ki -> k_tenant ki = A -> k_admin ki = false) ->
  A <> B ->
  responses_of cfg A cs (run idx_str score cfg cs)
  = responses_of cfg A (remove_tenant cfg B cs) (run idx_str score cfg (remove_tenant cfg B cs)).
Proof. intros idx_str score Hinj cfg A B cs Hadm HAB. exact (noninterference idx_str score Hinj cfg A Hadm B cs HAB). Qed.

(* Tenant index assignment over the life of a data dir (tmap_create at the first start, tmap_ensure_all
   at every later start with a possibly extended key file): indices stay dense and pairwise distinct,
   tenants present at the first start keep their index for ever, and a tenant the map has not seen
   gets the index `size of the map`, which no existing tenant has, without moving anybody else. *)
Theorem C10_tenant_index_stable_across_restart :
  forall (first_keys : list str) (later : list (list str)),
  let m0 := tmap_create first_keys in
  let m := fold_left tmap_ensure_all later m0 in
  tm_ok m
  /\ (forall t i, tm_get m0 t = Some i -> tm_get m t = Some i)
  /\ (forall t, tm_get m t = None ->
        tm_get (tmap_ensure m t) t = Some (tlen m)
        /\ (forall t' i, tm_get m t' = Some i -> i <> tlen m /\ tm_get (tmap_ensure m t) t' = Some i)).
Proof.
  intros first_keys later m0 m.
  destruct (restarts_ok later m0 (tmap_create_ok first_keys)) as [Hok Hst]. fold m in Hok, Hst.
  split; [exact Hok|]. split; [exact Hst|]. intros t Hn. split; [apply tmap_ensure_fresh; exact Hn|].
  intros t' i H. split; [|apply tmap_ensure_stable; exact H]. destruct Hok as [Hb _]. apply Hb in H. lia.
Qed.
(* two keys of one tenant (key rotation) do not consume two indices *)
Example C10_tenant_index_dedup :
  tmap_create [s2l "acme"; s2l "bolt"; s2l "acme"; s2l "cato"] = [(s2l "acme", 0); (s2l "bolt", 1); (s2l "cato", 2)]
  /\ tm_get (tmap_ensure (tmap_create [s2l "acme"; s2l "bolt"; s2l "acme"; s2l "cato"]) (s2l "dax")) (s2l "dax") = Some 3.
Proof. split; vm_compute; reflexivity. Qed.

(* For every request kind INCLUDING BulkLoadHnsw by other tenants:
   a call authenticated as another tenant leaves A's view (documents, quota count, usage) unchanged. *)
Theorem C10_other_tenant_step_invisible :
  forall (idx_str : N -> str) (score : Z -> Z),
  (forall a b, idx_str a = idx_str b -> a = b) ->
  forall cfg A ki s r, k_tenant ki <> A -> wf idx_str s ->
  equivA A s (fst (handle idx_str score cfg ki s r)).
Proof. intros idx_str score Hinj cfg A ki s r H W. exact (handle_other idx_str score Hinj cfg A ki H s r W). Qed.

(* Search family: whatever the count, an answer never contains anything but the caller's own
   documents: global id in the caller's range, stored tenant index = caller, namespace selector exact,
   filter satisfied, id/score/vector/metadata those of that document, reserved keys stripped. *)
Theorem C10_search_containment :
  forall idx_str score cfg s key ki r hits tf,
  auth cfg key = Some ki ->
  snd (step idx_str score cfg s (mkCall key (RSearch r))) = OkSearch hits tf ->
  (forall h, In h hits -> hit_of idx_str score ki r (st_docs s) h /\ public (h_meta h))
  /\ len hits <= s_k r /\ len hits <= tf.
Proof.
  intros idx_str score cfg s key ki r hits tf Ha H. unfold step in H. cbn [c_key c_req] in H. rewrite Ha in H.
  cbn [handle] in H. unfold h_search in H.
  destruct (search_core idx_str score cfg ki (st_docs s) r) eqn:E; cbn [snd] in H; [discriminate|].
  inversion H; subst. exact (search_core_contained _ _ _ _ _ _ _ _ E).
Qed.
Theorem C10_bulk_search_containment :
  forall idx_str score cfg s key ki rs outs,
  auth cfg key = Some ki ->
  snd (step idx_str score cfg s (mkCall key (RBulkSearch rs))) = OkBulkSearch outs ->
  forall hits tf, In (SOk hits tf) outs ->
  exists r, In r rs /\ (forall h, In h hits -> hit_of idx_str score ki r (st_docs s) h /\ public (h_meta h)) /\ len hits <= s_k r.
Proof.
  intros idx_str score cfg s key ki rs outs Ha H hits tf Hin. unfold step in H. cbn [c_key c_req] in H. rewrite Ha in H.
  cbn [handle snd] in H. unfold h_bulk_search in H. cbn [snd] in H. inversion H; subst.
  apply in_map_iff in Hin. destruct Hin as [r [E Hr]]. exists r.
  destruct (search_core_contained _ _ _ _ _ _ _ _ E) as [C1 [C2 _]]. auto.
Qed.

(* Known finding: the number of hits tenant A gets depends on tenant B's documents (global top-k, then
   tenant filter): 5 hits without B, 0 with B's five closer vectors. *)
Theorem C10_search_count_refuted :
  exists cfg cs B,
    hits_of (last (run dec_str w_score cfg cs) (Err Internal)) <>
    hits_of (last (run dec_str w_score cfg (remove_tenant cfg B cs)) (Err Internal)).
Proof.
  exists w_cfg, (w_a_inserts ++ w_b_inserts ++ [w_search]), 1. vm_compute. discriminate.
Qed.
(* Known finding: FlushHotTier's documents_flushed counts every tenant's recent writes. *)
Theorem C10_flush_count_refuted :
  exists cfg cs B,
    last (run dec_str w_score cfg cs) (Err Internal) <>
    last (run dec_str w_score cfg (remove_tenant cfg B cs)) (Err Internal).
Proof.
  exists w_cfg, (w_a_inserts ++ w_b_inserts ++ [w_flush]), 1. vm_compute. discriminate.
Qed.

(* Reserved keys: (1) a call and the same call with every client-supplied reserved key removed are
   indistinguishable (so they are never stored); (2) what IS stored under the reserved keys is the
   server's own value; (3) no response carries a reserved key. *)
Theorem C10_reserved_keys :
  forall idx_str score cfg,
  (forall s c, step idx_str score cfg s (mkCall (c_key c) (strip_req (c_req c))) = step idx_str score cfg s c)
  /\ (forall ki m ns,
        mget (stored_meta idx_str ki m ns) K_TIDX = Some (idx_str (k_tenant ki)) /\
        mget (stored_meta idx_str ki m ns) K_TID = Some (k_tid ki) /\
        mget (stored_meta idx_str ki m ns) K_NS = match ns with [] => None | _ => Some ns end)
  /\ (forall s c m, In m (resp_metas (snd (step idx_str score cfg s c))) -> public m).
Proof.
  intros idx_str score cfg. split; [|split].
  - intros s c. apply step_strip.
  - apply stored_meta_reserved.
  - intros s c m. apply responses_public.
Qed.

(* Every RPC (and GET /usage) without a valid ENABLED key is refused and has no effect. *)
Theorem C10_unauthenticated_refused :
  forall idx_str score cfg s c,
  (c_key c = None
   \/ (exists k, c_key c = Some k /\ nget (c_keys cfg) k = None)
   \/ (exists k ki, c_key c = Some k /\ nget (c_keys cfg) k = Some ki /\ k_enabled ki = false)) ->
  step idx_str score cfg s c = (s, Err (if is_http (c_req c) then Http401 else Unauthenticated)).
Proof. intros idx_str score cfg s c H. apply unauthenticated_refused. apply auth_none_cases. exact H. Qed.

(* Non-vacuity: the hypotheses of the noninterference theorem hold for the two-tenant witness history
   (keys of tenant 0 are not admin), and the theorem then says that
   tenant 0's projected answers agree — while the unprojected Search answers differ (refuted above). *)
Example C10_nonvacuous :
  responses_of w_cfg 0 (w_a_inserts ++ w_b_inserts ++ [w_search]) (run dec_str w_score w_cfg (w_a_inserts ++ w_b_inserts ++ [w_search]))
  = [OkInsert true 1 0; OkInsert true 1 0; OkInsert true 1 0; OkInsert true 1 0; OkInsert true 1 0; OkSearch [] 0]
  /\ (forall k ki, nget (c_keys w_cfg) k = Some ki -> k_tenant ki = 0 -> k_admin ki = false).
Proof.
  split; [vm_compute; reflexivity|].
  intros k ki H _. cbn in H. destruct (k =? 1); [inversion H; reflexivity|]. destruct (k =? 2); [inversion H; reflexivity|discriminate].
Qed.

Print Assumptions C10_noninterference.
Print Assumptions C10_tenant_index_stable_across_restart.
Print Assumptions C10_other_tenant_step_invisible.
Print Assumptions C10_search_containment.
Print Assumptions C10_bulk_search_containment.
Print Assumptions C10_search_count_refuted.
Print Assumptions C10_flush_count_refuted.
Print Assumptions C10_reserved_keys.
Print Assumptions C10_unauthenticated_refused.
