(* C03 — a write that reports failure changes nothing, now or after restart.  Lemmas in
   Proofs/WalWriterProofs.v, the model in Model/WalWriter.v (byte-level WalWriter with
   rollback, poisoning, WalErrorHandler retry/classification and circuit breaker, on top of the
   byte-level reader model Model/WalBytes.v; thin engine layer for insert / delete / batch_delete /
   update_metadata with WAL-before-memory ordering and restart = strict read + replay).

   Every theorem quantifies over EVERY fault oracle `orc : list sysres` (the outcome of each write /
   fsync / fdatasync / ftruncate the code issues, in order, any length: short writes, every errno
   class, faults during the rollback and during the retries), every fsync policy `pol`, every state
   satisfying the writer invariant `Inv` (reached from `init` by any history, `C03_ack_durable`).
   `crc` and `deser_ok` are parameters with the explicit premises `crc p < 2^32` and `wfp p`
   (payload size within bounds, bincode-decodable) for the payloads being logged.

   RECORDED CLASS (known_findings C03-rollback-failed-after-complete-frame).  `known_c03 st ps orc`
   = the call fails, its rollback fails, and at that moment at least the first complete frame of the
   same call is already in the file (write ok + fsync fails + ftruncate fails; or a batch whose first
   frame is written, a later write fails and the ftruncate fails).  Failure atomicity is proved for
   every input outside this class; inside it the theorem is refuted by a computed witness
   (C03_complete_frame_leftover_refuted), which replays on the real engine.  What IS proved inside
   the class: only a prefix of that call's own entries can appear (C03_wal_failure_prefix), no other
   document is affected (C03_others_untouched), nothing acknowledged is lost (C03_ack_durable) and
   nothing more is acknowledged (C03_no_ack_after_poison). *)
From Coq Require Import List NArith Bool Lia.
From Kyro Require Import Model.WalBytes Proofs.WalBytesProofs Model.WalWriter Proofs.WalWriterProofs.
Import ListNotations.
Open Scope N_scope.

(* A failed writer call leaves the strict reader's view exactly as it was (same entries, still Ok),
   even when the rollback itself failed and a torn tail stays behind. *)
Theorem C03_wal_failure_atomic :
  forall (crc : bytes -> N) (pol : policy) (deser_ok : bytes -> bool), (forall p, crc p < 4294967296) ->
  forall (st : wstate) (es : list bytes) (op : wop) (orc : oracle) st' r orc',
  Inv crc deser_ok st es -> Forall (wfp deser_ok) (wpayloads op) ->
  wstep crc pol st op orc = (st', r, orc') -> is_failed r = true ->
  known_c03 crc pol st (wpayloads op) orc = false ->
  read_all_strict crc deser_ok (w_file (s_w st')) = read_all_strict crc deser_ok (w_file (s_w st)) /\
  read_all_strict crc deser_ok (w_file (s_w st)) = RdOk es /\ Inv crc deser_ok st' es.
Proof.
  intros crc pol deser_ok Hc st es op orc st' r orc' HI Hps H Hr Hk. rewrite wstep_as_batch in H.
  destruct (batch_step crc pol deser_ok st es _ orc st' r orc' HI Hps H) as (j & HI' & _ & Hz).
  rewrite (Hz Hr Hk), app_nil_r in HI'.
  rewrite (Inv_read crc deser_ok Hc _ _ HI), (Inv_read crc deser_ok Hc _ _ HI'). auto.
Qed.

(* In every case, recorded class included: the reader sees the old entries followed by a prefix of
   THIS call's entries (all of them when acknowledged); nothing older is removed or damaged. *)
Theorem C03_wal_failure_prefix :
  forall (crc : bytes -> N) (pol : policy) (deser_ok : bytes -> bool), (forall p, crc p < 4294967296) ->
  forall (st : wstate) (es : list bytes) (op : wop) (orc : oracle) st' r orc',
  Inv crc deser_ok st es -> Forall (wfp deser_ok) (wpayloads op) ->
  wstep crc pol st op orc = (st', r, orc') ->
  exists j, read_all_strict crc deser_ok (w_file (s_w st')) = RdOk (es ++ firstn j (wpayloads op)) /\
            Inv crc deser_ok st' (es ++ firstn j (wpayloads op)) /\
            (r = Acked -> firstn j (wpayloads op) = wpayloads op).
Proof.
  intros crc pol deser_ok Hc st es op orc st' r orc' HI Hps H. rewrite wstep_as_batch in H.
  destruct (batch_step crc pol deser_ok st es _ orc st' r orc' HI Hps H) as (j & HI' & Ha & _).
  exists j. split; [apply (Inv_read crc deser_ok Hc); exact HI'|]. split; [exact HI'|exact Ha].
Qed.

(* Every acknowledged payload is returned by the strict reader in every later state, for every
   history of calls and every fault oracle; outside the recorded class the reader returns EXACTLY
   the acknowledged payloads, in order. *)
Theorem C03_ack_durable :
  forall (crc : bytes -> N) (pol : policy) (deser_ok : bytes -> bool), (forall p, crc p < 4294967296) ->
  forall (ops : list wop) (orc : oracle) st' rs orc',
  Forall (fun op => Forall (wfp deser_ok) (wpayloads op)) ops ->
  wrun crc pol init ops orc = (st', rs, orc') ->
  exists es', read_all_strict crc deser_ok (w_file (s_w st')) = RdOk es' /\
              (forall p, In p (acked_payloads ops rs) -> In p es') /\
              (any_known crc pol init ops orc = false -> es' = acked_payloads ops rs).
Proof.
  intros crc pol deser_ok Hc ops orc st' rs orc' Hps H.
  destruct (wrun_spec crc pol deser_ok ops init [] orc st' rs orc' (Inv_init crc deser_ok) Hps H)
    as (es' & HI & Hin & Hex).
  exists es'. split; [apply (Inv_read crc deser_ok Hc); exact HI|]. split; [intros p Hp; apply Hin; auto|exact Hex].
Qed.

(* The invariant is not an assumption about the outside world: every state reached from the freshly
   created writer by any history under any oracle satisfies it. *)
Theorem C03_reachable_inv :
  forall (crc : bytes -> N) (pol : policy) (deser_ok : bytes -> bool), (forall p, crc p < 4294967296) ->
  forall (ops : list wop) (orc : oracle) st' rs orc',
  Forall (fun op => Forall (wfp deser_ok) (wpayloads op)) ops ->
  wrun crc pol init ops orc = (st', rs, orc') -> exists es', Inv crc deser_ok st' es'.
Proof.
  intros crc pol deser_ok Hc ops orc st' rs orc' Hw H.
  destruct (wrun_spec crc pol deser_ok ops init [] orc st' rs orc' (Inv_init crc deser_ok) Hw H) as (es' & HI & _).
  exists es'. exact HI.
Qed.

(* The reader lemma behind the rollback-failure case: complete frames followed by a proper prefix of
   one more frame (a torn tail) read, strictly and without error, as exactly the complete frames. *)
Theorem C03_torn_tail_reads_as_complete_frames :
  forall (crc : bytes -> N) (deser_ok : bytes -> bool), (forall p, crc p < 4294967296) ->
  forall (es : list bytes) (q : bytes) (k : nat),
  Forall (wfp deser_ok) es -> valid_payload q -> (k < length (frame crc q))%nat ->
  read_all_strict crc deser_ok (segment crc es ++ firstn k (frame crc q)) = RdOk es.
Proof.
  intros crc deser_ok Hc es q k Hw Hq Hk. apply read_segment_torn; [exact Hc|exact Hw|].
  right. exists q, k. auto.
Qed.

(* After a failed rollback nothing is acknowledged and the file is never touched again. *)
Theorem C03_no_ack_after_poison :
  forall (crc : bytes -> N) (pol : policy) (ops : list wop) (st : wstate) (orc : oracle) st' rs orc',
  w_poisoned (s_w st) = true -> wrun crc pol st ops orc = (st', rs, orc') ->
  Forall (fun r => is_failed r = true) rs /\ s_w st' = s_w st.
Proof. exact no_ack_after_poison_run. Qed.

(* Every input class the index would refuse is refused before anything is logged: the whole state
   (file, counters, live map) and the oracle are untouched.  Stated over the classes themselves, so
   it is FALSE for the ordering before /repo ca4513e (see C03_prefix_model_refuted). *)
Theorem C03_invalid_input_no_effect :
  forall (crc : bytes -> N) (pol : policy) (st : estate) (id : N) (c : icls) (body : bytes) (orc : oracle),
  c <> IValid -> estep crc pol st (OInsert id c body) orc = (st, EFail, orc).
Proof.
  intros crc pol st id c body orc H. rewrite estep_eq. cbn [op_payloads noop_res].
  replace (preflight_rejects c) with true by (destruct c; try reflexivity; congruence).
  now destruct (e_degraded st).
Qed.

(* Engine level: an operation that does not return Ok changes neither the live map nor what a
   restart recovers; and "restart recovers exactly the live map" is preserved by every step. *)
Theorem C03_engine_failure_atomic :
  forall (crc : bytes -> N) (pol : policy) (deser_ok : bytes -> bool), (forall p, crc p < 4294967296) ->
  forall (st : estate) (op : eop) (orc : oracle) st' r orc',
  EInv crc deser_ok st -> Forall (wfp deser_ok) (op_payloads st op) ->
  estep crc pol st op orc = (st', r, orc') -> e_known crc pol st op orc = false ->
  EInv crc deser_ok st' /\
  (r <> EOk -> e_mem st' = e_mem st /\
               recover crc deser_ok (w_file (s_w (e_s st'))) = recover crc deser_ok (w_file (s_w (e_s st)))).
Proof. exact engine_failure_atomic. Qed.

Theorem C03_engine_history :
  forall (crc : bytes -> N) (pol : policy) (deser_ok : bytes -> bool), (forall p, crc p < 4294967296) ->
  forall (ops : list eop) (orc : oracle) st' rs orc',
  e_all_wf crc pol deser_ok einit ops orc -> e_any_known crc pol einit ops orc = false ->
  erun crc pol einit ops orc = (st', rs, orc') ->
  recover crc deser_ok (w_file (s_w (e_s st'))) = Some (e_mem st').
Proof.
  intros crc pol deser_ok Hc ops orc st' rs orc' Hw Hk H.
  apply (EInv_recover crc deser_ok Hc).
  exact (engine_history crc pol deser_ok Hc ops einit orc st' rs orc' (EInv_init crc deser_ok) Hw Hk H).
Qed.

(* No other document is affected — for every outcome of the operation, recorded class included. *)
Theorem C03_others_untouched :
  forall (crc : bytes -> N) (pol : policy) (deser_ok : bytes -> bool), (forall p, crc p < 4294967296) ->
  forall (st : estate) (op : eop) (orc : oracle) st' r orc' (id : N),
  EInv crc deser_ok st -> Forall (wfp deser_ok) (op_payloads st op) -> Forall id_ok (op_ids op) ->
  estep crc pol st op orc = (st', r, orc') -> ~ In id (op_ids op) ->
  m_get id (e_mem st') = m_get id (e_mem st) /\
  exists m m', recover crc deser_ok (w_file (s_w (e_s st))) = Some m /\
               recover crc deser_ok (w_file (s_w (e_s st'))) = Some m' /\
               m_get id m' = m_get id m.
Proof. exact others_untouched. Qed.

(* ---------------------------------------------------------------------------------------------- *)
(* Witnesses (executable CRC-32, every payload decodable)                                           *)
(* ---------------------------------------------------------------------------------------------- *)
Definition all_ok : bytes -> bool := fun _ => true.
Definition p1 : bytes := enc 0 7 [1; 2; 3].
Definition p2 : bytes := enc 0 8 [9; 9].
Definition p3 : bytes := enc 1 7 [].

(* REFUTED inside the recorded class: write ok, fsync EIO, ftruncate EIO.  The call fails, the writer
   is poisoned, and the strict reader now returns the entry of the failed call. *)
Theorem C03_complete_frame_leftover_refuted :
  let orc := [SOk; SErr EIO; SErr EIO] in
  let '(st', r, _) := append crc32m PAlways init p1 orc in
  known_c03 crc32m PAlways init [p1] orc = true /\ is_failed r = true /\ w_poisoned (s_w st') = true /\
  read_all_strict crc32m all_ok (w_file (s_w init)) = RdOk [] /\
  read_all_strict crc32m all_ok (w_file (s_w st')) = RdOk [p1].
Proof. vm_compute. repeat split. Qed.

(* the same class in a batch: frame 1 written, write of frame 2 fails, ftruncate fails *)
Theorem C03_complete_frame_leftover_batch_refuted :
  let orc := [SOk; SShort 3; SErr EIO; SErr EACCES] in
  let '(st', r, _) := append_batch crc32m PAlways init [p3; p2] orc in
  known_c03 crc32m PAlways init [p3; p2] orc = true /\ is_failed r = true /\
  read_all_strict crc32m all_ok (w_file (s_w st')) = RdOk [p3].
Proof. vm_compute. repeat split. Qed.

(* REFUTED for the ordering before ca4513e (append, then the index check, then a compensating
   Delete): insert(1, valid) acknowledged; insert(1, non-finite) fails and leaves the live map
   alone, but a restart no longer has document 1. *)
Example C03_prefix_model_refuted :
  let '(st1, r1, _) := estep_old crc32m PAlways einit (OInsert 1 IValid [5; 5]) [] in
  let '(st2, r2, _) := estep_old crc32m PAlways st1 (OInsert 1 INonFinite [6; 6]) [] in
  r1 = EOk /\ r2 = EFail /\ e_mem st2 = e_mem st1 /\
  is_some (m_get 1 (e_mem st2)) = true /\
  option_map (m_get 1) (recover crc32m all_ok (w_file (s_w (e_s st1)))) = Some (m_get 1 (e_mem st1)) /\
  option_map (m_get 1) (recover crc32m all_ok (w_file (s_w (e_s st2)))) = Some None /\
  (* the current ordering on the same history: nothing is logged *)
  estep crc32m PAlways st1 (OInsert 1 INonFinite [6; 6]) [] = (st1, EFail, []).
Proof. vm_compute. repeat split. Qed.

(* Non-vacuity 1: a concrete oracle with a short write, then ENOSPC, then a failed truncate.  The
   hypotheses of C03_wal_failure_atomic hold (Inv, wfp, outside the recorded class), the call fails,
   a 5-byte torn tail stays in the file, the reader's view is unchanged, the writer is poisoned and
   the next call is refused. *)
Definition nv_orc : oracle := [SShort 5; SErr ENOSPC; SErr EIO].

Example C03_nonvacuous_short_enospc_failed_truncate :
  let '(st1, r1, o1) := append crc32m PAlways init p1 [] in
  let '(st2, r2, o2) := append crc32m PAlways st1 p2 nv_orc in
  let '(st3, r3, _) := append crc32m PAlways st2 p3 o2 in
  r1 = Acked /\ is_failed r2 = true /\ known_c03 crc32m PAlways st1 [p2] nv_orc = false /\
  w_poisoned (s_w st2) = true /\
  length (w_file (s_w st2)) = (length (w_file (s_w st1)) + 5)%nat /\
  read_all_strict crc32m all_ok (w_file (s_w st1)) = RdOk [p1] /\
  read_all_strict crc32m all_ok (w_file (s_w st2)) = RdOk [p1] /\
  r3 = Failed (FError XPoisoned) /\ w_file (s_w st3) = w_file (s_w st2).
Proof. vm_compute. repeat split. Qed.

(* Non-vacuity 2: transient faults are retried with the same closure and the call is then
   acknowledged (EIO on the write, rollback, EINTR inside write_all and fsync, short write, success);
   disk-full opens the breaker and the next call is refused without touching the file. *)
Example C03_nonvacuous_retry_then_ack_and_breaker :
  let orc := [SShort 4; SErr EIO; SOk; SOk;                (* attempt 1: torn, rolled back *)
              SErr EINTR; SShort 9; SOk; SErr EINTR; SOk;  (* attempt 2: succeeds *)
              SErr ENOSPC; SOk; SOk] in                   (* next call: disk full, rolled back *)
  let '(st1, r1, o1) := append crc32m PAlways init p1 orc in
  let '(st2, r2, o2) := append crc32m PAlways st1 p2 o1 in
  let '(st3, r3, _) := append crc32m PAlways st2 p3 o2 in
  r1 = Acked /\ r2 = Failed FDiskFull /\ r3 = Failed FBreakerOpen /\ o2 = [] /\
  w_file (s_w st1) = segment crc32m [p1] /\ w_file (s_w st3) = segment crc32m [p1] /\
  b_open (s_b st2) = true /\ w_poisoned (s_w st3) = false.
Proof. vm_compute. repeat split. Qed.

(* the premises are satisfiable: the initial state satisfies the invariant, the sample payloads are
   well formed, and the executable CRC-32 meets the range premise *)
Example C03_premises_satisfiable :
  Inv crc32m all_ok init [] /\ Forall (wfp all_ok) [p1; p2; p3] /\ (forall p, crc32m p < 4294967296) /\
  EInv crc32m all_ok einit.
Proof.
  split; [apply Inv_init|]. split; [|split; [exact crc32m_lt|apply EInv_init]].
  repeat constructor; unfold max_wal_entry; cbn; lia.
Qed.

Print Assumptions C03_wal_failure_atomic.
Print Assumptions C03_wal_failure_prefix.
Print Assumptions C03_ack_durable.
Print Assumptions C03_reachable_inv.
Print Assumptions C03_torn_tail_reads_as_complete_frames.
Print Assumptions C03_no_ack_after_poison.
Print Assumptions C03_invalid_input_no_effect.
Print Assumptions C03_engine_failure_atomic.
Print Assumptions C03_engine_history.
Print Assumptions C03_others_untouched.
Print Assumptions C03_complete_frame_leftover_refuted.
Print Assumptions C03_prefix_model_refuted.
