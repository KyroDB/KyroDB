(* C13 — strict recovery never silently returns damaged state.

   Byte level (Model/WalBytes.v, an executable model of WalReader::open/read_all/read_all_strict and of
   the Snapshot::load envelope, tied to the real readers on every run by kernel-evaluated
   differential correspondence over intact and mutated files):
     * every well-formed segment / snapshot file reads back exactly what was written;
     * damage to the bytes a checksum covers (payload or checksum bytes of any frame, snapshot data or
       checksum bytes) is never silent: the strict reader reports corruption / the load fails;
     * every truncation of a snapshot file fails to load;
     * every truncation of a segment reads WITHOUT error as a prefix of its entries (torn tails are
       tolerated in every segment) — this is what makes truncation of a non-newest segment silent
       (recorded finding C13-non-newest-segment-truncated);
     * the frame length field is not covered by any checksum: witness C13_length_field_damage_silent
       (recorded finding C13-wal-frame-length-runs-past-eof).
   `crc` is a parameter with crc p < 2^32; the instance used by the correspondence is the executable
   CRC-32 (crc32m).  "The checksum differs after damage" is an explicit premise (ck <> crc p): that
   CRC-32 detects every single-bit and burst error <= 32 bits is a property of the polynomial that is
   not proved here. *)
From Coq Require Import List NArith Bool Lia.
From Kyro Require Import Model.WalBytes Proofs.WalBytesProofs.
Import ListNotations.
Open Scope N_scope.

Theorem C13_wal_roundtrip :
  forall (crc : bytes -> N) (deser_ok : bytes -> bool), (forall p, crc p < 4294967296) ->
  forall ps, Forall valid_payload ps -> (forall p, In p ps -> deser_ok p = true) ->
  read_all_strict crc deser_ok (segment crc ps) = RdOk ps.
Proof.
  intros crc deser_ok Hc ps Hv Hd. rewrite <- (app_nil_r (segment crc ps)).
  apply read_segment_silent; auto. intro f. apply read_frames_nil.
Qed.

(* good frames, ONE frame altered in place, then anything *)
Theorem C13_wal_checksum_damage_detected :
  forall (crc : bytes -> N) (deser_ok : bytes -> bool), (forall p, crc p < 4294967296) ->
  forall ps1 p ck rest,
  Forall valid_payload ps1 -> valid_payload p -> ck < 4294967296 -> ck <> crc p ->
  exists c, read_all_strict crc deser_ok
              (wal_magic ++ concat (map (frame crc) ps1) ++ bad_frame p ck ++ rest) = RdErrCorrupt c.
Proof.
  intros crc deser_ok Hc ps1 p ck rest Hv1 Hp Hck Hne. unfold read_all_strict. rewrite read_all_magic.
  destruct (frames_fuel crc ps1 (bad_frame p ck ++ rest)) as [f ->].
  rewrite (read_frames_app crc deser_ok Hc ps1 _ _ Hv1), (read_frames_bad_frame crc deser_ok f p ck rest Hp Hck Hne).
  destruct (read_frames crc deser_ok f rest) as [es c].
  destruct (N.eqb_spec (c + 1 + undec deser_ok ps1) 0); [lia|]. eauto.
Qed.

Theorem C13_wal_short_file_refused :
  forall (crc : bytes -> N) (deser_ok : bytes -> bool) file,
  (length file < 4)%nat -> read_all_strict crc deser_ok file = RdErrMagic.
Proof.
  intros crc deser_ok file H. unfold read_all_strict, read_all. rewrite take_short; [reflexivity|lia].
Qed.

Theorem C13_wal_truncation_reads_prefix :
  forall (crc : bytes -> N) (deser_ok : bytes -> bool), (forall p, crc p < 4294967296) ->
  forall ps n, Forall valid_payload ps -> (forall p, In p ps -> deser_ok p = true) -> (4 <= n)%nat ->
  exists j, read_all_strict crc deser_ok (firstn n (segment crc ps)) = RdOk (firstn j ps).
Proof. exact torn_prefix. Qed.

Theorem C13_snapshot_roundtrip :
  forall (crc : bytes -> N), (forall p, crc p < 4294967296) ->
  forall data, N.of_nat (length data) < 256 ^ N.of_nat 8 ->
  snapshot_load crc (snapshot_file crc data) = Some data.
Proof.
  intros crc Hc data Hl. unfold snapshot_file. rewrite <- (app_nil_r (to_le 4 _)).
  rewrite snapshot_load_envelope, N.eqb_refl by auto. reflexivity.
Qed.

Theorem C13_snapshot_damage_detected :
  forall (crc : bytes -> N), (forall p, crc p < 4294967296) ->
  forall data ck rest,
  N.of_nat (length data) < 256 ^ N.of_nat 8 -> ck < 4294967296 -> ck <> crc data ->
  snapshot_load crc (snap_magic ++ to_le 8 (N.of_nat (length data)) ++ data ++ to_le 4 ck ++ rest) = None.
Proof.
  intros crc _ data ck rest Hl Hck Hne. rewrite snapshot_load_envelope by auto.
  now apply N.eqb_neq in Hne as ->.
Qed.

Theorem C13_snapshot_truncated_refused :
  forall (crc : bytes -> N), (forall p, crc p < 4294967296) ->
  forall data n, N.of_nat (length data) < 256 ^ N.of_nat 8 ->
  (n < length (snapshot_file crc data))%nat ->
  snapshot_load crc (firstn n (snapshot_file crc data)) = None.
Proof. intros crc _. exact (snapshot_truncated_refused crc). Qed.

Theorem C13_crc32m_range : forall p, crc32m p < 4294967296.
Proof. exact crc32m_lt. Qed.

(* REFUTED for the length field: one flipped bit, strict reading succeeds with nothing. *)
Theorem C13_length_field_damage_silent :
  read_all_strict crc32m (fun _ => true) lenflip_file = RdOk [[1; 2; 3]; [4]] /\
  read_all_strict crc32m (fun _ => true) lenflip_damaged = RdOk [].
Proof. split; vm_compute; reflexivity. Qed.

(* non-vacuity: a concrete two-entry segment is well formed and round-trips under the real CRC *)
Example C13_nonvacuous :
  Forall valid_payload [[1; 2; 3]; [4]] /\
  read_all_strict crc32m (fun _ => true) (segment crc32m [[1; 2; 3]; [4]]) = RdOk [[1; 2; 3]; [4]].
Proof.
  split; [|vm_compute; reflexivity].
  repeat constructor; unfold max_wal_entry; cbn; lia.
Qed.

Print Assumptions C13_wal_roundtrip.
Print Assumptions C13_wal_checksum_damage_detected.
Print Assumptions C13_wal_truncation_reads_prefix.
Print Assumptions C13_snapshot_damage_detected.
Print Assumptions C13_snapshot_truncated_refused.
Print Assumptions C13_length_field_damage_silent.
