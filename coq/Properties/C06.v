(* C06 — search results are sound and reflect acknowledged recent writes (PARTIAL: soundness + guarded
   completeness for recent writes; NOT proved: f32 kernel accuracy, ANN completeness/recall).
   Models: Model/Knn.v and gen/SearchK_gen.v.

   Premises shared by the statements (each is an assumption about the world outside the model and is listed
   in the trusted base of evidence/C06.json):
     dle total + transitive      distances form a total preorder (no NaN);
     digest injective            coherence digests identify vectors (no 128-bit digest collision);
     dg_eqb a b = true -> a = b  digest comparison is equality;
     order l ~ l                 HashMap iteration yields a permutation of the entries;
     store_wf                    DocStore invariant: one live slot per external id, stored digest = digest of the
                                 stored vector;  hot_wf: hot-tier keys are distinct (HashMap);
     ann_contract                the AnnBackend trait contract: ascending, duplicate-free, at most search_k
                                 entries, each carrying the TRUE distance of the slot it names;
     cache_ok                    a query-cache entry handed to the search is valid for (store, query, k): C07. *)
From Coq Require Import List NArith Bool Arith Permutation Sorted.
From Kyro Require Import gen.SearchK_gen Model.Knn Proofs.KnnProofs.
Import ListNotations.

(* The bounded max-heap scan of HotTier::knn_search_with_cancel returns exactly the k smallest finite
   candidates by (distance, doc id): any hot tier (distinct keys), any iteration order, any k. *)
Theorem C06_hot_heap_is_topk :
  forall (vec dist dg : Type) (dle : dist -> dist -> bool) (dfin : dist -> bool) (metric : vec -> vec -> dist),
    (forall a b, dle a b = true \/ dle b a = true) ->
    (forall a b c, dle a b = true -> dle b c = true -> dle a c = true) ->
    forall (k : nat) (q : vec) (hs : hot vec dg),
      NoDup (map h_id hs) ->
      hot_knn dle dfin metric k q hs = topk_spec dle dfin k (hot_cands metric q hs).
Proof. exact hot_heap_is_topk. Qed.

(* merge_knn_results: at most k, distinct ids, non-decreasing distances, every entry comes from the hot or the
   cold list with that list's distance, and the hot distance wins when an id is in both. *)
Theorem C06_merge_sound :
  forall (dist : Type) (dle : dist -> dist -> bool),
    (forall a b, dle a b = true \/ dle b a = true) ->
    (forall a b c, dle a b = true -> dle b c = true -> dle a c = true) ->
    forall (order : list (res dist) -> list (res dist)), (forall l, Permutation (order l) l) ->
    forall (h c : list (res dist)) (k : nat),
      let out := merge_knn dle order h c k in
      (length out <= k)%nat
      /\ NoDup (map fst out)
      /\ sorted_by_distance dist dle out
      /\ (forall i d, In (i, d) out -> In (i, d) h \/ (~ In i (map fst h) /\ In (i, d) c)).
Proof. intros dist dle Ht Hr. apply (merge_sound dist dle Ht Hr). Qed.

(* HnswBackend::knn_search_with_ef_cancel under the oracle contract: at most k results, distinct, every one
   names a document that is live NOW (no tombstoned slot, no stale internal id) with the true distance of its
   CURRENT vector, in non-decreasing order. *)
Theorem C06_cold_sound :
  forall (vec dist dg : Type) (dle : dist -> dist -> bool) (metric : vec -> vec -> dist) (digest : vec -> dg)
         (ann : ann_t vec dist) (s : cstore vec dg) (qc : qcheck) (q : vec) (k : N) (out : list (res dist)),
    store_wf vec dg digest s ->
    ann_contract vec dist dg dle metric ann s q ->
    cold_search ann s qc q k = Ok out ->
    sound_results vec dist dg dle metric s q (N.to_nat k) out /\ (1 <= k <= 10000)%N.
Proof. exact cold_sound. Qed.

(* The tiered entry points knn_search / knn_search_with_ef (knn_search_with_ef_detailed_scoped): every Ok
   response is sound, whatever the hot tier holds (stale mirrors included). *)
Theorem C06_sound :
  forall (vec dist dg : Type) (dle : dist -> dist -> bool) (dfin : dist -> bool) (metric : vec -> vec -> dist)
         (digest : vec -> dg) (dg_eqb : dg -> dg -> bool),
    (forall a b, dle a b = true \/ dle b a = true) ->
    (forall a b c, dle a b = true -> dle b c = true -> dle a c = true) ->
    (forall a b, digest a = digest b -> a = b) ->
    (forall a b, dg_eqb a b = true -> a = b) ->
    forall (order : list (res dist) -> list (res dist)), (forall l, Permutation (order l) l) ->
    forall (ann : ann_t vec dist) (e e' : engine vec dg) (qc : qcheck) (q : vec) (k : N) (ef : option N)
           (cache : option (list (res dist))) (r : response dist),
      store_wf vec dg digest (e_cold e) -> hot_wf vec dg (e_hot e) ->
      ann_contract vec dist dg dle metric ann (e_cold e) q ->
      cache_ok vec dist dg dle metric (e_cold e) q (N.to_nat k) cache ->
      tiered_search dle dfin metric digest dg_eqb order ann e qc q k ef cache = (Ok r, e') ->
      sound_results vec dist dg dle metric (e_cold e) q (N.to_nat k) (r_results r) /\ e_cold e' = e_cold e.
Proof.
  intros vec dist dg dle dfin metric digest dg_eqb Ht Hr Hinj Heq order Hperm ann e e' qc q k ef cache r Hwf Hhot Hann Hcache H.
  apply tiered_search_ok in H. destruct H as (_ & Ee & [(f & Hf & ->)|(cold_r & Hc & -> & _)]); (split; [|exact Ee]).
  - eapply cache_lookup_sound; eauto.
  - apply merged_sound; auto; [apply hot_filtered_live; auto | eapply cold_r_sound; eauto].
Qed.

(* The timed path knn_search_with_timeouts*: every Ok response — full, partial or degraded, for every
   combination of breaker states, worker permits, panics and timeouts — is sound. *)
Theorem C06_sound_timed :
  forall (vec dist dg : Type) (dle : dist -> dist -> bool) (dfin : dist -> bool) (metric : vec -> vec -> dist)
         (digest : vec -> dg) (dg_eqb : dg -> dg -> bool),
    (forall a b, dle a b = true \/ dle b a = true) ->
    (forall a b c, dle a b = true -> dle b c = true -> dle a c = true) ->
    (forall a b, digest a = digest b -> a = b) ->
    (forall a b, dg_eqb a b = true -> a = b) ->
    forall (order : list (res dist) -> list (res dist)), (forall l, Permutation (order l) l) ->
    forall (ann : ann_t vec dist) (e e' : engine vec dg) (qc : qcheck) (q : vec) (k : N) (ef : option N)
           (cache : option (list (res dist))) (t : tenv) (r : response dist),
      store_wf vec dg digest (e_cold e) -> hot_wf vec dg (e_hot e) ->
      ann_contract vec dist dg dle metric ann (e_cold e) q ->
      cache_ok vec dist dg dle metric (e_cold e) q (N.to_nat k) cache ->
      timed_search dle dfin metric digest dg_eqb order ann e qc q k ef cache t = (Ok r, e') ->
      sound_results vec dist dg dle metric (e_cold e) q (N.to_nat k) (r_results r) /\ e_cold e' = e_cold e.
Proof.
  intros vec dist dg dle dfin metric digest dg_eqb Ht Hr Hinj Heq order Hperm ann e e' qc q k ef cache t r Hwf Hhot Hann Hcache H.
  apply timed_search_ok in H. destruct H as (_ & Ee & [(f & Hf & ->)|(hot_r & p1 & Hh & H)]); (split; [|exact Ee]).
  - eapply cache_lookup_sound; eauto.
  - eapply timed_result_sound; eauto. eapply hot_r_sound; eauto.
Qed.

(* compute_search_k as regenerated from /repo: it is its integer part applied to its float expression; for
   EVERY value of that expression: 0 for k = 0, k <= search_k <= min(10000, max(total, k)) for 1 <= k <= 10000,
   exactly k without tombstones, and the clamp cannot panic. *)
Theorem C06_search_k_bounds :
  forall k live total : N,
    compute_search_k k live total = compute_search_k_with (search_k_fsite k live total) k live total
    /\ (forall fx : N,
          let r := compute_search_k_with fx k live total in
          (k = 0 -> r = 0)%N
          /\ ((1 <= k <= 10000)%N -> (k <= r)%N /\ (r <= search_k_upper k total)%N /\ (r <= N.max k (N.min 10000 total))%N)
          /\ (r <= 10000)%N
          /\ (live = 0%N \/ (total <= live)%N -> (k <= 10000)%N -> r = k)
          /\ compute_search_k_panics_with fx k live total = false).
Proof.
  intros k live total. split; [reflexivity|].
  intro fx. destruct (search_k_bounds_with fx k live total) as [A [B [C D]]].
  repeat split; try tauto; try apply B; auto. apply search_k_no_panic.
Qed.

(* Oversampling: unless clamped to the upper bound, (search_k - headroom) * live >= k * total, i.e. the
   candidate list is expected to contain k live slots plus max(k/4, 2) spare ones.  Premise: the f64
   expression is not below its exact rational value (checked on the driver grid every run; f64 accuracy is
   otherwise not proved). *)
Theorem C06_search_k_oversampling :
  forall fx k live total : N,
    (0 < live)%N -> (1 <= k <= 10000)%N ->
    (search_k_fsite_exact k live total <= fx)%N ->
    let r := compute_search_k_with fx k live total in
    r = search_k_upper k total
    \/ ((total <= live)%N /\ r = k)
    \/ ((N.max (k / 4) 2 <= r)%N /\ (k * total <= (r - N.max (k / 4) 2) * live)%N).
Proof. exact search_k_oversampling_with. Qed.

(* RECENT WRITES.  A document acknowledged and still mirrored in the hot tier with a matching token
   (fresh_mirror) and a finite distance is, in every response that is not a cache hit, either present or
   beaten (the result is full and every returned document is at least as close) — PROVIDED it survives the hot
   tier's top-2k cut: fewer than 2k mirror entries, STALE OR NOT, precede it in (distance, id) order.  The
   cut is taken before filter_hot_knn_results_to_canonical drops stale mirrors, which is why the guard is
   needed (C06_recent_write_refuted).  Holds for ANY oracle (no ANN completeness assumed). *)
Theorem C06_recent_write_complete :
  forall (vec dist dg : Type) (dle : dist -> dist -> bool) (dfin : dist -> bool) (metric : vec -> vec -> dist)
         (digest : vec -> dg) (dg_eqb : dg -> dg -> bool),
    (forall a b, dle a b = true \/ dle b a = true) ->
    (forall a b c, dle a b = true -> dle b c = true -> dle a c = true) ->
    forall (order : list (res dist) -> list (res dist)), (forall l, Permutation (order l) l) ->
    forall (ann : ann_t vec dist) (e e' : engine vec dg) (qc : qcheck) (q : vec) (k : N) (ef : option N)
           (cache : option (list (res dist))) (r : response dist) (x : hentry vec dg),
      hot_wf vec dg (e_hot e) ->
      tiered_search dle dfin metric digest dg_eqb order ann e qc q k ef cache = (Ok r, e') ->
      r_path r <> CacheHit ->
      In x (e_hot e) -> fresh_mirror vec dg digest dg_eqb (e_cold e) x -> dfin (metric q (h_vec x)) = true ->
      survives_hot_cut vec dist dg dle dfin metric q k (e_hot e) x ->
      present_or_beaten vec dist dg dle metric q k x (r_results r).
Proof.
  intros vec dist dg dle dfin metric digest dg_eqb Ht Hr order Hperm ann e e' qc q k ef cache r x Hhot H Hpath Hx Hf Hfin Hg.
  eapply recent_core; eauto. left. apply fresh_in_hot_r; assumption.
Qed.

(* The same on the timed path for responses NOT produced under degradation (no timeout, panic, open breaker or
   saturated worker queue on the way). *)
Theorem C06_recent_write_complete_timed :
  forall (vec dist dg : Type) (dle : dist -> dist -> bool) (dfin : dist -> bool) (metric : vec -> vec -> dist)
         (digest : vec -> dg) (dg_eqb : dg -> dg -> bool),
    (forall a b, dle a b = true \/ dle b a = true) ->
    (forall a b c, dle a b = true -> dle b c = true -> dle a c = true) ->
    forall (order : list (res dist) -> list (res dist)), (forall l, Permutation (order l) l) ->
    forall (ann : ann_t vec dist) (e e' : engine vec dg) (qc : qcheck) (q : vec) (k : N) (ef : option N)
           (cache : option (list (res dist))) (t : tenv) (r : response dist) (x : hentry vec dg),
      hot_wf vec dg (e_hot e) ->
      timed_search dle dfin metric digest dg_eqb order ann e qc q k ef cache t = (Ok r, e') ->
      r_path r <> CacheHit -> r_degraded r = false ->
      In x (e_hot e) -> fresh_mirror vec dg digest dg_eqb (e_cold e) x -> dfin (metric q (h_vec x)) = true ->
      survives_hot_cut vec dist dg dle dfin metric q k (e_hot e) x ->
      present_or_beaten vec dist dg dle metric q k x (r_results r).
Proof.
  intros vec dist dg dle dfin metric digest dg_eqb Ht Hr order Hperm ann e e' qc q k ef cache t r x Hhot H Hpath Hdeg Hx Hf Hfin Hg.
  eapply recent_core_timed; eauto. left. apply fresh_in_hot_r; assumption.
Qed.

(* API HISTORIES.  Model/Knn.v `wstep` models every operation that creates or removes mirror entries:
   TieredEngine::insert, delete, bulk_load_cold_tier (since repo commit b64dfda it drops the mirrors of ALL loaded
   ids), flush / emergency drain, tombstone compaction, and the removals done by searches and audits.  Starting
   from an empty hot tier, after ANY sequence of them the hot-tier keys are distinct and NO mirror is stale.
   (Before b64dfda the WBulkLoad case failed: the mirrors of overwritten ids stayed with outdated tokens.) *)
Theorem C06_api_history_no_stale_mirror :
  forall (vec dg : Type) (digest : vec -> dg) (dg_eqb : dg -> dg -> bool),
    (forall a, dg_eqb a a = true) ->
    forall (ops : list (wop vec)) (e0 : engine vec dg),
      e_hot e0 = [] ->
      hot_wf vec dg (e_hot (wrun digest e0 ops))
      /\ forall y, In y (e_hot (wrun digest e0 ops)) -> fresh_mirror vec dg digest dg_eqb (e_cold (wrun digest e0 ops)) y.
Proof. exact api_history_mirrors_ok. Qed.

(* COROLLARY: in a state reached by an API history the recent-write clause holds WITHOUT the guard, for the sync
   and the timed entry points: when no mirror is stale, 2k mirror entries preceding x all pass the canonical
   filter, so the result is full of documents at least as close.  Any oracle; no ANN completeness assumed. *)
Theorem C06_recent_write_complete_api :
  forall (vec dist dg : Type) (dle : dist -> dist -> bool) (dfin : dist -> bool) (metric : vec -> vec -> dist)
         (digest : vec -> dg) (dg_eqb : dg -> dg -> bool),
    (forall a b, dle a b = true \/ dle b a = true) ->
    (forall a b c, dle a b = true -> dle b c = true -> dle a c = true) ->
    (forall a, dg_eqb a a = true) ->
    forall (order : list (res dist) -> list (res dist)), (forall l, Permutation (order l) l) ->
    forall (ops : list (wop vec)) (e0 : engine vec dg), e_hot e0 = [] ->
    let e := wrun digest e0 ops in
    forall (ann : ann_t vec dist) (qc : qcheck) (q : vec) (k : N) (ef : option N)
           (cache : option (list (res dist))) (x : hentry vec dg),
      In x (e_hot e) -> dfin (metric q (h_vec x)) = true ->
      (forall r e', tiered_search dle dfin metric digest dg_eqb order ann e qc q k ef cache = (Ok r, e') ->
                    r_path r <> CacheHit -> present_or_beaten vec dist dg dle metric q k x (r_results r))
      /\ (forall t r e', timed_search dle dfin metric digest dg_eqb order ann e qc q k ef cache t = (Ok r, e') ->
                    r_path r <> CacheHit -> r_degraded r = false ->
                    present_or_beaten vec dist dg dle metric q k x (r_results r)).
Proof.
  intros vec dist dg dle dfin metric digest dg_eqb Ht Hr Hrefl order Hperm ops e0 H0 e ann qc q k ef cache x Hx Hfin.
  destruct (api_history_mirrors_ok vec dg digest dg_eqb Hrefl ops e0 H0) as [HN Hall].
  split.
  - intros r e' H Hp. eapply recent_core; eauto. apply all_fresh_hot_ok; assumption.
  - intros t r e' H Hp Hd. eapply recent_core_timed; eauto. apply all_fresh_hot_ok; assumption.
Qed.

(* For ARBITRARY states (mirrors made stale by a race between a bulk load and an insert, or poked directly)
   the unguarded statement is FALSE in the faithful model (class C06-stale-mirrors-crowd-out-fresh-
   hot-result): well-formed store and hot tier, an oracle meeting the contract, a non-degraded non-cached Ok
   response, a fresh finite mirror entry of an acknowledged document — absent from the result although it is
   strictly closer than the k-th returned document; the guard is exactly what fails (2k stale mirrors, left by
   overwrites that bypass the hot tier, precede it). *)
Theorem C06_recent_write_refuted :
  ann_contract N N N Witness.dleN Witness.metricN Witness.annw Witness.cold 0%N
  /\ store_wf N N Witness.digestN Witness.cold
  /\ hot_wf N N Witness.hotl
  /\ (exists r e', Witness.run = (Ok r, e')
        /\ r_path r <> CacheHit /\ r_degraded r = false
        /\ In Witness.x9 Witness.hotl
        /\ fresh_mirror N N Witness.digestN N.eqb Witness.cold Witness.x9
        /\ ~ present_or_beaten N N N Witness.dleN Witness.metricN 0%N 1%N Witness.x9 (r_results r)
        /\ ~ survives_hot_cut N N N Witness.dleN (fun _ => true) Witness.metricN 0%N 1%N Witness.hotl Witness.x9).
Proof. split; [exact witness_contract | exact witness_refutes]. Qed.

(* Non-vacuity: the premises are satisfiable together and the guarded theorem applies to a real run — the
   same store with only ONE stale mirror: document 9 survives the cut and is returned first. *)
Definition nv_hot : hot N N := [ mk_hentry 1 1 1 1; Witness.x9 ].
Example C06_nonvacuous :
  store_wf N N Witness.digestN Witness.cold /\ hot_wf N N nv_hot
  /\ survives_hot_cut N N N Witness.dleN (fun _ => true) Witness.metricN 0%N 1%N nv_hot Witness.x9
  /\ fresh_mirror N N Witness.digestN N.eqb Witness.cold Witness.x9
  /\ exists r e',
       tiered_search Witness.dleN (fun _ => true) Witness.metricN Witness.digestN N.eqb (fun l => l) Witness.annw
         (mk_engine Witness.cold nv_hot) QOk 0%N 1%N (Some 10000%N) None = (Ok r, e')
       /\ r_results r = [(9%N, 5%N)] /\ e_hot e' = [Witness.x9]
       /\ compute_search_k 2 3 3 = 2%N /\ compute_search_k 1 2 98 = 52%N (* f64: ceil(1/(2/98)) = 50, not 49 *).
Proof.
  destruct C06_recent_write_refuted as [_ [Hs _]].
  split; [exact Hs|]. split; [unfold hot_wf; vm_compute; repeat constructor; cbn; intuition discriminate|].
  split; [unfold survives_hot_cut; vm_compute; auto|]. split; [vm_compute; reflexivity|].
  eexists. eexists. split; [vm_compute; reflexivity|]. vm_compute. auto.
Qed.

(* Non-vacuity of the history theorem: the operations of the directed scenario (mirrored inserts 1, 2; bulk
   load overwriting them; insert 9) leave exactly the mirror of 9, and it is fresh; the witness state of
   C06_recent_write_refuted is therefore not reachable by an API history any more. *)
Example C06_history_nonvacuous :
  let e := wrun Witness.digestN (mk_engine [] [])
             [WInsert 1 1 true; WInsert 2 2 true; WBulkLoad [(1, 50, true); (2, 60, true)]; WInsert 9 5 true]%N in
  map h_id (e_hot e) = [9%N]
  /\ map (@cs_ext N N) (e_cold e) = [None; None; Some 1; Some 2; Some 9]%N
  /\ canonical_vector_state Witness.digestN N.eqb (e_cold e) Witness.x9 = Match.
Proof. vm_compute. auto. Qed.

Print Assumptions C06_hot_heap_is_topk.
Print Assumptions C06_merge_sound.
Print Assumptions C06_cold_sound.
Print Assumptions C06_sound.
Print Assumptions C06_sound_timed.
Print Assumptions C06_search_k_bounds.
Print Assumptions C06_search_k_oversampling.
Print Assumptions C06_recent_write_complete.
Print Assumptions C06_recent_write_complete_timed.
Print Assumptions C06_api_history_no_stale_mirror.
Print Assumptions C06_recent_write_complete_api.
Print Assumptions C06_recent_write_refuted.
