(* C02 — restart is lossless.

   `run c ops` is the model (Model/Backend.v) of HnswBackend with persistence, started on an empty
   directory and driven by ANY list of operations: insert (incl. overwrite), delete, batch delete (with
   duplicates / absent ids), metadata update (merge | replace), manual snapshot, Restart (= strict
   recovery, which creates a segment and rewrites the manifest) — with automatic snapshots every
   `c_snapshot_interval` mutations (0 = off), WAL rotation at `c_max_wal` bytes (exact frame sizes;
   0 = off), log compaction after every snapshot and tombstone compaction when the index is full.
   `c` ranges over every metric, dimension, interval, rotation threshold, capacity and fsync policy.

   Premises (explicit; none is an axiom):
   * `wf_cfg c = true`: dimension > 0 and capacity > 0 (the constructors refuse anything else);
   * `norm_ok c`: ASSUMPTION ABOUT THE OUTSIDE WORLD: normalize_in_place_if_needed, seen as a function on f32 bit
     patterns, preserves the length and is bitwise idempotent.  The proofs use it only for normalised vectors that
     the index accepts (BackendProofs.norm_ok_acc); that form is measured by the harness on every run.
   No premise restricts the operations: since /repo commit ca4513e `insert` pre-flights the index's
   acceptance checks before the WAL append, so the former exception (defect #1 of DESIGN.md §4: a vector
   refused only after the append) is gone; `C02_rejected_insert_harmless` is the former counterexample. *)
From Coq Require Import List NArith ZArith Bool.
From Kyro Require Import Model.Amap Model.Backend Proofs.AmapProofs Proofs.BackendProofs.
Import ListNotations.
Open Scope N_scope.

(* Stopping at an operation boundary and recovering (strict mode) from the directory succeeds and
   yields exactly the live collection: same ids, bit-identical vectors, identical metadata. *)
Theorem C02_restart_lossless : forall (c : cfg) (ops : list op),
  wf_cfg c = true -> norm_ok c ->
  let s := run c ops in
  exists s', recover c Strict (st_disk s) = Ok s' /\ st_store s' = st_store s.
Proof.
  intros c ops Hwf Hn s. destruct (restart_lossless c s Hwf (run_inv c ops Hwf (norm_ok_weaken c Hn))) as (s' & E & Es & _).
  exists s'. split; [exact E|exact Es].
Qed.

(* Deleted documents never reappear and overwritten versions never resurface: for every id the
   restarted engine answers what the live engine answered. *)
Theorem C02_no_resurrection : forall (c : cfg) (ops : list op) (id : N),
  wf_cfg c = true -> norm_ok c ->
  let s := run c ops in
  exists s', recover c Strict (st_disk s) = Ok s' /\ get (st_store s') id = get (st_store s) id.
Proof.
  intros c ops id Hwf Hn s. destruct (C02_restart_lossless c ops Hwf Hn) as (s' & E & Es).
  exists s'. split; [exact E|]. rewrite Es. reflexivity.
Qed.

(* ... and an acknowledged delete really removed the id from the live collection. *)
Theorem C02_delete_absent : forall (c : cfg) (s : state) (id : N),
  Inv c s -> snd (fst (do_delete c s id)) = OBool true ->
  get (st_store (fst (fst (do_delete c s id)))) id = None.
Proof. intros c s id [_ (A & _)]. exact (delete_then_absent c s id A). Qed.

(* Sequence numbers continue: the recovered engine resumes with exactly the live engine's next
   sequence number, which exceeds every sequence number left in the directory (log entries of the listed
   segments and the snapshot's last_wal_seq). *)
Theorem C02_seq_monotone : forall (c : cfg) (ops : list op),
  wf_cfg c = true -> norm_ok c ->
  let s := run c ops in
  exists s', recover c Strict (st_disk s) = Ok s' /\ st_next_seq s' = st_next_seq s /\
    exists m, load_manifest (st_disk s) = Some m /\
      Forall (fun e => e_seq e < st_next_seq s') (all_entries (st_disk s) (m_segments m)) /\
      opt_or0 (m_snapshot_seq m) < st_next_seq s'.
Proof.
  intros c ops Hwf Hn s. destruct (restart_lossless c s Hwf (run_inv c ops Hwf (norm_ok_weaken c Hn))) as (s' & E & _ & R).
  exists s'. split; [exact E|exact R].
Qed.

(* Any number of consecutive restarts after any history: the collection does not change, and yet another
   restart still succeeds with the same collection.  (Writes after a restart are covered by
   C02_restart_lossless itself, because `ops` may contain Restart anywhere.) *)
Theorem C02_restart_chain : forall (c : cfg) (ops : list op) (n : nat),
  wf_cfg c = true -> norm_ok c ->
  st_store (run c (ops ++ repeat ORestart n)) = st_store (run c ops) /\
  exists s', recover c Strict (st_disk (run c (ops ++ repeat ORestart n))) = Ok s' /\
             st_store s' = st_store (run c ops).
Proof.
  intros c ops n Hwf Hn. unfold run. rewrite fold_left_app. fold (run c ops).
  destruct (restart_chain c n _ Hwf (run_inv c ops Hwf (norm_ok_weaken c Hn))) as [I S].
  split; [exact S|]. destruct (restart_lossless c _ Hwf I) as (s' & E & Es & _).
  exists s'. split; [exact E|]. rewrite Es. exact S.
Qed.

(* The invariant behind all of the above (DESIGN.md §3.2 Backend.Inv) holds in every reachable state. *)
Theorem C02_invariant : forall (c : cfg) (ops : list op),
  wf_cfg c = true -> norm_ok c -> Inv c (run c ops).
Proof. intros c ops Hwf Hn. exact (run_inv c ops Hwf (norm_ok_weaken c Hn)). Qed.

(* The effect list of an operation is exact, in EVERY state (no invariant needed): the next directory
   is the old one with the effects applied in order.  (Foundation of C01's crash prefixes.) *)
Theorem C02_effects_exact : forall (c : cfg) (s : state) (o : op) s' out effs,
  step c s o = (s', out, effs) -> st_disk s' = apply_effs (st_disk s) effs.
Proof. exact step_disk. Qed.

(* ---- the former counterexample of defect #1, now harmless: the NaN overwrite is refused before anything
   is logged, the live document survives the restart ---- *)
Definition nonfinite (b : Z) : bool := (Z.eqb (Z.modulo (Z.div b 8388608) 256) 255).
Definition wit_cfg : cfg :=
  mkCfg Euclidean 2 0 0 64 FsNever (fun v => Some v) (fun v => negb (existsb nonfinite v)).
(* insert(1,[1.0,2.0]); insert(1,[NaN,2.0]) *)
Definition wit_ops : list op :=
  [OInsert 1 [1065353216; 1073741824]%Z []; OInsert 1 [2143289344; 1073741824]%Z []].

Example C02_rejected_insert_harmless :
  snd (fst (step wit_cfg (run wit_cfg [OInsert 1 [1065353216; 1073741824]%Z []])
                 (OInsert 1 [2143289344; 1073741824]%Z []))) = OErrRejected /\
  snd (step wit_cfg (run wit_cfg [OInsert 1 [1065353216; 1073741824]%Z []])
            (OInsert 1 [2143289344; 1073741824]%Z [])) = [] /\
  let s := run wit_cfg wit_ops in
  exists s', recover wit_cfg Strict (st_disk s) = Ok s' /\
             get (st_store s') 1 = Some (mkDoc [1065353216; 1073741824]%Z []).
Proof.
  split; [vm_compute; reflexivity|]. split; [vm_compute; reflexivity|].
  eexists. split; vm_compute; reflexivity.
Qed.

(* ---- non-vacuity: the premises are satisfiable by a history that exercises overwrite, delete-then-
   reinsert, duplicate batch delete, merge, automatic snapshots + compaction, rotation after every
   append, tombstone compaction (capacity 3) and restarts, under a NON-identity normalisation ---- *)
Definition ex_norm (v : vec) : option vec :=
  match v with [] => None | _ :: _ => Some (map (fun _ => 1%Z) v) end.
Definition ex_cfg : cfg := mkCfg Cosine 2 2 1 3 FsAlways ex_norm (fun _ => true).
Definition ex_ops : list op :=
  [OInsert 1 [5; 6]%Z [([107], [1])]; OInsert 2 [7; 8]%Z []; OInsert 1 [9; 9]%Z [([107], [2])];
   ODelete 2; ORestart; OInsert 2 [3; 3]%Z []; OBatchDelete [1; 1; 9]; OUpdate 2 [([108], [3])] true;
   OInsert 4 [2; 2]%Z []; OInsert 5 [2; 2]%Z []; OSnapshot; ORestart; ORestart].

Lemma ex_norm_ok : norm_ok ex_cfg.
Proof.
  intros v w H. cbn in H. unfold ex_norm in H. destruct v as [|z v]; [discriminate|]. inversion H; subst.
  split; [cbn [map length]; rewrite map_length; reflexivity|]. cbn. rewrite map_map. reflexivity.
Qed.

Example C02_nonvacuous :
  wf_cfg ex_cfg = true /\ norm_ok ex_cfg /\
  st_store (run ex_cfg ex_ops)
  = [(2, mkDoc [1; 1]%Z [([108], [3])]); (4, mkDoc [1; 1]%Z []); (5, mkDoc [1; 1]%Z [])] /\
  manifest_shape (run ex_cfg ex_ops) = Some (Some 10, 3) /\
  exists s', recover ex_cfg Strict (st_disk (run ex_cfg ex_ops)) = Ok s' /\
             st_store s' = st_store (run ex_cfg ex_ops) /\ st_next_seq s' = 11.
Proof.
  split; [reflexivity|]. split; [exact ex_norm_ok|].
  split; [vm_compute; reflexivity|]. split; [vm_compute; reflexivity|].
  eexists. split; [vm_compute; reflexivity|]. split; vm_compute; reflexivity.
Qed.

Print Assumptions C02_restart_lossless.
Print Assumptions C02_no_resurrection.
Print Assumptions C02_delete_absent.
Print Assumptions C02_seq_monotone.
Print Assumptions C02_restart_chain.
Print Assumptions C02_invariant.
Print Assumptions C02_effects_exact.
Print Assumptions C02_rejected_insert_harmless.
Print Assumptions C02_nonvacuous.
