(* C12 — restoring a backup reproduces the collection as of that backup.
   Lemmas in Proofs/BackupProofs.v over Model/Backup.v (a line-by-line model of
   engine/src/backup.rs as of /repo 0a20737).  `recovery_view` is exactly what HnswBackend::recover reads
   from a directory (MANIFEST, the snapshot it names, the segments it lists): equal views = identical
   recovery input, so "the restored directory reproduces the collection" is
   `recovery_view restored = recovery_view source`.

   Premises made explicit in the statements (validated on the real engine's directories every run by
   the harness, which evaluates wf_sdirb / evolvesb / snap_stableb on them inside coqc):
     wf_sdir d m  : quiescent engine directory (unique names, MANIFEST lists exactly the on-disk
                    segments in increasing id order, the snapshot it names exists);
     evolves      : segments not selected by an incremental are unchanged since its parent;
     snaps_agree  : a snapshot name denotes one content (snapshots are written once, fresh ids).
   The only class left outside the exactness theorem is KnownC12 = a chain member's metadata is missing
   from the backup directory at restore time (removed by hand: prune can no longer cause it).
   The two defects repaired in /repo (b41f57f, 0a20737) are kept as Examples on copies of the old
   functions. *)
From Coq Require Import List NArith Bool Sorted.
From Kyro Require Import Model.Backup Proofs.BackupProofs.
Import ListNotations.
Open Scope N_scope.

(* Full backup -> restore into an empty directory: exactly the recovery-relevant files of the source. *)
Theorem C12_full_restore_exact : forall d m id ts aux o,
  wf_sdir d m -> o_dry o = false ->
  exists b, create_full d id ts aux = Ok b /\
            b_files b = view_files d m /\
            restore_by_id [b] [] id o = (None, view_files d m) /\
            recovery_view (view_files d m) = recovery_view (strip d) /\
            restorable (view_files d m) = true.
Proof. exact full_restore_exact. Qed.

(* Incremental chains of any length. *)
Theorem C12_chain_restore_exact : forall sc st rch tip d m o,
  chain_ok sc rch d m -> hd_error rch = Some tip ->
  NoDup (map b_id rch) -> store_sub st rch -> o_dry o = false ->
  ~ KnownC12 st rch ->
  exists t', restore_by_id st [] (b_id tip) o = (None, t') /\
             recovery_view t' = recovery_view (strip d) /\ restorable t' = true.
Proof.
  intros sc st rch tip d m o HC HH ND HSub HD HK. eapply chain_restore_exact_present; eauto.
  intros b HI. destruct (HSub b HI) as [E|E]; [exact E|]. exfalso; apply HK; exists b; auto.
Qed.

(* Chain invariant: the chain up to any backup contains the snapshot that backup's manifest names. *)
Theorem C12_chain_contains_manifest_snapshot : forall sc rch d m s,
  chain_ok sc rch d m -> m_snap m = Some s ->
  tget (extract_chain [] (rev rch)) (FSnap s) = option_map fst (sget d (FSnap s)) /\
  (exists c mt, sget d (FSnap s) = Some (c, mt) /\ exists b, In b rch /\ In (FSnap s, c) (b_files b)).
Proof. exact chain_contains_manifest_snapshot. Qed.

(* Pruning never removes a backup that a retained backup depends on ... *)
Theorem C12_prune_keeps_parents : forall now p st b pid y,
  NoDup (map b_id st) -> In b (prune_store now p st) -> b_parent b = Some pid ->
  In y st -> b_id y = pid -> In y (prune_store now p st).
Proof. exact prune_keeps_parents. Qed.

(* ... so after ANY prune every retained member of a chain still restores exactly (no exception). *)
Theorem C12_chain_restore_exact_after_prune : forall sc now p st rch tip d m o,
  chain_ok sc rch d m -> hd_error rch = Some tip -> NoDup (map b_id rch) -> NoDup (map b_id st) ->
  (forall b, In b rch -> find_b st (b_id b) = Some b) -> o_dry o = false ->
  In tip (prune_store now p st) ->
  exists t', restore_by_id (prune_store now p st) [] (b_id tip) o = (None, t') /\
             recovery_view t' = recovery_view (strip d) /\ restorable t' = true.
Proof.
  intros sc now p st rch tip d m o HC HH NDR NDS HF HD HT. eapply chain_restore_exact_present; eauto.
  destruct (chain_linked _ _ _ _ HC) as [HL _]. eapply prune_keeps_chain; eauto.
Qed.

(* Prune never invents backups: the deleted ids are a subset, the retained store a duplicate-free one. *)
Theorem C12_prune_subset : forall now p st,
  incl (prune_deleted now p (list_backups st)) (map b_id (list_backups st)) /\
  incl (prune_store now p st) st /\
  (NoDup (map b_id st) -> NoDup (map b_id (prune_store now p st))) /\
  (forall b, In b (prune_store now p st) -> ~ In (b_id b) (prune_deleted now p (list_backups st))).
Proof.
  intros now p st. unfold prune_store. repeat split.
  - intros x HI. unfold prune_deleted in HI. apply in_map_iff in HI; destruct HI as [b [E HB]].
    apply filter_In in HB. apply in_map_iff; exists b; tauto.
  - intros x HI; apply filter_In in HI; tauto.
  - apply Proofs.ListFacts.NoDup_map_filter.
  - intros b HI HD. apply filter_In in HI; destruct HI as [_ HN].
    apply memN_In in HD. rewrite HD in HN; discriminate.
Qed.

(* If any archive of the chain fails verification, nothing is touched (by id and point-in-time);
   more generally every refusal leaves the target directory exactly as it was. *)
Theorem C12_tamper_rejected_before_clear : forall st t o,
  (forall id ch b, build_chain st id = Ok ch -> In b ch -> b_ok b = false ->
                   restore_by_id st t id o = (Some EVerify, t)) /\
  (forall ts ch b, pitr_chain st ts = Ok ch -> In b ch -> b_ok b = false ->
                   restore_pitr st t ts o = (Some EVerify, t)) /\
  (forall id e t', restore_by_id st t id o = (Some e, t') -> t' = t) /\
  (forall ts e t', restore_pitr st t ts o = (Some e, t') -> t' = t).
Proof.
  intros st t o. repeat split; intros x.
  - apply via_chain_tamper.
  - apply via_chain_tamper.
  - apply via_chain_err.
  - apply via_chain_err.
Qed.

(* A non-empty target is never cleared without allow_clear or BACKUP_ALLOW_CLEAR=true (the restore is
   refused and the target is unchanged); a dry run never modifies it either. *)
Theorem C12_no_clear_without_confirmation : forall st t o,
  (t <> [] -> o_allow o = false -> o_env o = false ->
     (forall id r t', restore_by_id st t id o = (r, t') -> t' = t /\ r <> None) /\
     (forall ts r t', restore_pitr st t ts o = (r, t') -> t' = t /\ r <> None)) /\
  (o_dry o = true ->
     (forall id r t', restore_by_id st t id o = (r, t') -> t' = t) /\
     (forall ts r t', restore_pitr st t ts o = (r, t') -> t' = t)).
Proof.
  intros st t o; split.
  - intros NE HA HE. split; intros x r t'; apply via_chain_no_confirm; assumption.
  - intros HD. split; intros x r t'; apply via_chain_dry, HD.
Qed.

(* Only id, parent_id, backup_type, the archive and its verification (plus timestamp for PITR)
   influence a restore: timestamp (by id), size_bytes, vector_count, description, max_wal_file_id,
   snapshot_file cannot change the outcome or the restored directory. *)
Theorem C12_metadata_irrelevant : forall st st' t o,
  (Forall2 (fun b b' => (b_id b, b_parent b, b_kind b, b_files b, b_ok b) =
                        (b_id b', b_parent b', b_kind b', b_files b', b_ok b')) st st' ->
     forall id, restore_by_id st t id o = restore_by_id st' t id o) /\
  (Forall2 (fun b b' => (b_id b, b_parent b, b_kind b, b_files b, b_ok b) =
                        (b_id b', b_parent b', b_kind b', b_files b', b_ok b') /\ b_ts b = b_ts b') st st' ->
     forall ts, restore_pitr st t ts o = restore_pitr st' t ts o).
Proof.
  intros st st' t o; split; intros H x.
  - apply metadata_irrelevant_by_id; exact H.
  - apply metadata_irrelevant_pitr; exact H.
Qed.

(* The two repaired defects, on copies of the OLD functions, and the same inputs on the current model. *)
Example C12_old_incremental_after_snapshot_witness :
  create_full w_d0 1 60 0 = Ok w_b1 /\
  create_incr_files_old w_d1 60 (Some 10) = Ok (b_files w_b2_old, Some 10, None) /\
  exists t', restore_by_id [w_b1; w_b2_old] [] 2 opts_plain = (None, t') /\
             restorable t' = false /\ recovery_view t' <> recovery_view (strip w_d1).
Proof. exact old_incremental_after_snapshot. Qed.

Example C12_incremental_after_snapshot_now_exact :
  create_incremental [w_b1] w_d1 1 2 80 0 = Ok w_b2 /\
  restore_by_id [w_b1; w_b2] [] 2 opts_plain =
    (None, [(FManifest, CMan w_m1); (FWal 10, CBlob 101); (FSnap 70, CBlob 200)]) /\
  recovery_view (snd (restore_by_id [w_b1; w_b2] [] 2 opts_plain)) = recovery_view (strip w_d1) /\
  recovery_view (strip w_d1) = Some (w_m1, Some (CBlob 200), [CBlob 101]).
Proof. exact incremental_after_snapshot_now_exact. Qed.

Example C12_old_prune_parent_witness :
  prune_store_old 1000 default_policy [w_b2; w_b1] = [w_b2] /\
  restore_by_id (prune_store_old 1000 default_policy [w_b2; w_b1]) [] 2 opts_plain = (Some EParentNotFound, []) /\
  prune_store 1000 default_policy [w_b2; w_b1] = [w_b2; w_b1] /\
  fst (restore_by_id (prune_store 1000 default_policy [w_b2; w_b1]) [] 2 opts_plain) = None.
Proof. exact old_prune_deleted_parent. Qed.

(* KnownC12 is inhabited only by outside interference: the parent's metadata removed by hand. *)
Example C12_ancestor_removed_by_hand :
  KnownC12 [w_b2] [w_b2; w_b1] /\ restore_by_id [w_b2] [] 2 opts_plain = (Some EParentNotFound, []).
Proof. exact ancestor_removed_by_hand. Qed.

(* Non-vacuity: a four-member chain (full, incremental, incremental after a NEW snapshot and a rotation,
   incremental whose snapshot is found two levels up by the metadata walk) satisfies every premise,
   restores to the source's view, and survives the default prune entirely; and prune still deletes
   backups no survivor depends on. *)
Example C12_nonvacuous :
  let st := [n_b1; n_b2; n_b3; n_b4] in let rch := [n_b4; n_b3; n_b2; n_b1] in
  chain_ok n_sc rch n_d3 n_m2 /\ NoDup (map b_id rch) /\ store_sub st rch /\ ~ KnownC12 st rch /\
  restore_by_id st [] 4 opts_plain =
    (None, [(FSnap 5, CBlob 300); (FManifest, CMan n_m2); (FWal 10, CBlob 102); (FSnap 7, CBlob 301); (FWal 20, CBlob 401)]) /\
  recovery_view (snd (restore_by_id st [] 4 opts_plain)) = recovery_view (strip n_d3) /\
  recovery_view (strip n_d3) = Some (n_m2, Some (CBlob 301), [CBlob 102; CBlob 401]) /\
  In n_b4 (prune_store 1000 default_policy st) /\ prune_store 1000 default_policy st = st.
Proof.
  cbn zeta. split; [exact n_chain_ok|].
  split; [vm_compute; repeat constructor; cbn; intuition discriminate|].
  split; [intros b [E|[E|[E|[E|[]]]]]; subst; left; vm_compute; reflexivity|].
  split.
  - intros [b [[E|[E|[E|[E|[]]]]] HN]]; subst; vm_compute in HN; discriminate.
  - (* no `repeat split` here: on `In _ (prune_store ..)` it would make `split` head-normalise the prune *)
    do 3 (split; [vm_compute; reflexivity|]). split; vm_compute; auto.
Qed.

Example C12_prune_still_prunes :
  prune_deleted 1000 default_policy (list_backups [w_b1; w_b2; p_b3]) = [2; 1].
Proof. exact prune_still_prunes. Qed.

Print Assumptions C12_full_restore_exact.
Print Assumptions C12_chain_restore_exact.
Print Assumptions C12_chain_contains_manifest_snapshot.
Print Assumptions C12_prune_keeps_parents.
Print Assumptions C12_chain_restore_exact_after_prune.
Print Assumptions C12_prune_subset.
Print Assumptions C12_tamper_rejected_before_clear.
Print Assumptions C12_no_clear_without_confirmation.
Print Assumptions C12_metadata_irrelevant.
Print Assumptions C12_nonvacuous.
