(* C18 — unsafe durability and exposure settings are refused outside benchmark mode.
   `Config_gen.validate` is the guard-by-guard translation of KyroDbConfig::validate that harness/p/translator regenerates from /repo on every run;
   `c` are the safety-relevant settings, `o` the opaque unrelated guards (universally quantified: an
   unrelated guard can only reject more). *)
From Coq Require Import Bool List NArith.
From Kyro Require Import Model.RustStr gen.Config_gen Proofs.ConfigProofs.
Import ListNotations.

Theorem C18_accept_implies_safe : forall (c : safety_cfg) (o : opaque_guards),
  Config_gen.validate c o = true ->
  (env c <> Benchmark -> fsync c <> FsNone /\ snapshot_interval c <> SnapZero /\
                         recovery c = Strict /\ strategy c = Learned) /\
  (env c = Pilot -> auth c = true /\ rate_limit c = true /\ obs_auth c <> ObsDisabled /\
                    fresh_start c = false /\ (tls c = true \/ grpc_loopback c = true)) /\
  (env c = Production -> grpc_loopback c = false -> auth c = true).
Proof. intros c o H. exact (proj1 (accepted c o H)). Qed.

(* an accepted configuration names one of the three environments (nothing else is ever accepted) *)
Theorem C18_accept_implies_known_env : forall (c : safety_cfg) (o : opaque_guards),
  Config_gen.validate c o = true -> env c = Production \/ env c = Pilot \/ env c = Benchmark.
Proof. intros c o H. exact (proj2 (accepted c o H)). Qed.

(* The same, as a function of the RAW environment.type string (any case, any surrounding Unicode
   white space): `canon raw` = to_ascii_lowercase (trim raw).  Only the literal canonical name
   "benchmark" is exempt from the durability requirements. *)
Theorem C18_env_normalised : forall (raw : str) (c : safety_cfg) (o : opaque_guards),
  Config_gen.validate_raw raw c o = true ->
  (canon raw = env_lit_production \/ canon raw = env_lit_pilot \/ canon raw = env_lit_benchmark) /\
  (canon raw <> env_lit_benchmark ->
     fsync c <> FsNone /\ snapshot_interval c <> SnapZero /\ recovery c = Strict /\ strategy c = Learned) /\
  (canon raw = env_lit_pilot ->
     auth c = true /\ rate_limit c = true /\ obs_auth c <> ObsDisabled /\ fresh_start c = false /\
     (tls c = true \/ grpc_loopback c = true)) /\
  (canon raw = env_lit_production -> grpc_loopback c = false -> auth c = true).
Proof. exact env_normalised. Qed.

(* the class of a name does not depend on surrounding white space or on ASCII case *)
Theorem C18_env_padding : forall (ws1 s ws2 : str),
  forallb is_ws ws1 = true -> forallb is_ws ws2 = true ->
  Config_gen.env_of_raw (ws1 ++ s ++ ws2) = Config_gen.env_of_raw s.
Proof.
  intros ws1 s ws2 H1 H2. unfold env_of_raw. rewrite !env_normalise_is_canon. unfold canon.
  rewrite str_trim_pad by assumption. reflexivity.
Qed.

Theorem C18_env_case : forall (s : str),
  Config_gen.env_of_raw (str_to_ascii_uppercase s) = Config_gen.env_of_raw s /\
  Config_gen.env_of_raw (str_to_ascii_lowercase s) = Config_gen.env_of_raw s.
Proof. intro s. split; [apply env_of_raw_upper | apply env_of_raw_lower]. Qed.

(* Non-vacuity: the most conservative production and pilot configurations (every safety setting on its
   safe value, loopback binds, TLS) are accepted when the unrelated guards pass — so the premise of the
   theorems is satisfiable in both environments and a change that only makes validate stricter does not
   break this example; their unsafe neighbours are refused. *)
Definition ex_production : safety_cfg := {|
  env := Production; fsync := FsFull; snapshot_interval := SnapPositive; recovery := Strict;
  strategy := Learned; auth := true; rate_limit := true; obs_auth := ObsAll; fresh_start := false;
  tls := true; grpc_loopback := true; http_host_set := true; http_loopback := true |}.

Definition ex_pilot : safety_cfg := with_env Pilot ex_production.

Example C18_nonvacuous :
  Config_gen.validate ex_production all_opaque_true = true /\
  Config_gen.validate ex_pilot all_opaque_true = true /\
  (* " PILot<TAB>" is the pilot environment; "pilot" padded with U+00A0 / U+3000 too *)
  Config_gen.validate_raw [32; 80; 73; 76; 111; 116; 9]%N ex_production all_opaque_true = true /\
  Config_gen.env_of_raw [160; 112; 105; 108; 111; 116; 12288]%N = Pilot /\
  (* unsafe neighbours are refused *)
  Config_gen.validate {| env := Pilot; fsync := FsNone; snapshot_interval := SnapPositive; recovery := Strict;
      strategy := Learned; auth := true; rate_limit := true; obs_auth := ObsAll; fresh_start := false;
      tls := true; grpc_loopback := true; http_host_set := true; http_loopback := true |} all_opaque_true = false /\
  Config_gen.validate {| env := Pilot; fsync := FsFull; snapshot_interval := SnapPositive; recovery := Strict;
      strategy := Learned; auth := true; rate_limit := true; obs_auth := ObsAll; fresh_start := false;
      tls := false; grpc_loopback := false; http_host_set := true; http_loopback := true |} all_opaque_true = false /\
  Config_gen.validate {| env := Production; fsync := FsFull; snapshot_interval := SnapPositive; recovery := Strict;
      strategy := Learned; auth := false; rate_limit := true; obs_auth := ObsDisabled; fresh_start := false;
      tls := true; grpc_loopback := false; http_host_set := true; http_loopback := true |} all_opaque_true = false.
Proof. vm_compute. repeat split; reflexivity. Qed.

Print Assumptions C18_accept_implies_safe.
Print Assumptions C18_accept_implies_known_env.
Print Assumptions C18_env_normalised.
Print Assumptions C18_env_padding.
Print Assumptions C18_env_case.
