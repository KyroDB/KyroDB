(* C03 (segment level) — acknowledged operations stay durable whatever storage fault hits WAL rotation,
   the snapshot commit, WAL compaction or start-up.  Lemmas in Proofs/SegmentsProofs.v,
   the model in Model/Segments.v.

   Every theorem quantifies over EVERY list of micro-steps `ms` from the empty directory: any number
   of appends, rotations, snapshots (with compaction), stops and starts, in any order, and for each
   of them every outcome of every Manifest::save it performs (VOk / VPre = failed up to the rename /
   VPost = failed in the directory fsync AFTER the rename had replaced the MANIFEST), every outcome of
   creating the new segment file (ok / failed without a file / failed leaving a file) and every
   outcome of every unlink.  `mrun init ms = Some s'` only excludes ill-formed observations (an
   append without a running engine, sequence numbers that do not increase, a snapshot whose
   last_wal_seq is below a number already appended).

   What Model/WalWriter.v (file C03.v) proves about ONE segment file — a failed append leaves the
   reader's view unchanged, an acknowledged entry is in the file — composes with these: the entry is
   in the ACTIVE segment, and here the active segment is always the newest listed one, exists, and
   is never unlinked while it holds an entry the committed snapshot does not cover. *)
From Coq Require Import List NArith Bool.
From Kyro Require Import Model.Segments Proofs.SegmentsProofs.
Import ListNotations.
Open Scope N_scope.

(* Every sequence number ever appended is recoverable: covered by the committed snapshot, or held by
   a segment that the on-disk MANIFEST lists and whose file exists. *)
Theorem C03_seg_appended_stays_recoverable :
  forall ms s', mrun init ms = Some s' -> forall n, In n (log s') -> recoverable s' n = true.
Proof.
  intros ms s' H n Hn. apply recoverable_reflect. exact (i_durable _ (mrun_inv _ _ _ Inv_init H) n Hn).
Qed.

(* "Covered by the committed snapshot" is meant literally: a number <= snap was appended before that
   snapshot was captured (no later append can slip under the snapshot's sequence number). *)
Theorem C03_seg_snapshot_covers_only_captured :
  forall ms s' n, mrun init ms = Some s' -> In n (log s') -> n <= snap s' -> In n (captured s').
Proof. intros ms s' n H. exact (i_captured _ (mrun_inv _ _ _ Inv_init H) n). Qed.

(* The live writer appends to the newest segment the on-disk MANIFEST lists, and that file exists:
   compaction ("keep the last listed segment") can therefore never unlink the file being written. *)
Theorem C03_seg_writer_on_newest_listed :
  forall ms s' a, mrun init ms = Some s' -> active s' = Some a ->
  lastN (man s') = Some a /\ memN a (files s') = true.
Proof.
  intros ms s' a H Ha. pose proof (mrun_inv _ _ _ Inv_init H) as I. split; [exact (i_active _ I a Ha)|].
  apply memN_In, (i_exist _ I), lastN_In, (i_active _ I a Ha).
Qed.

(* Strict recovery never meets a listed segment whose file is gone. *)
Theorem C03_seg_listed_segments_exist :
  forall ms s', mrun init ms = Some s' -> forallb (fun f => memN f (files s')) (man s') = true.
Proof.
  intros ms s' H. apply forallb_forall. intros f Hf.
  apply memN_In. exact (i_exist _ (mrun_inv _ _ _ Inv_init H) f Hf).
Qed.

(* The one-step form (every state satisfying the invariant, every micro-step, every fault outcome). *)
Theorem C03_seg_step_preserves_invariant :
  forall s m s', Inv s -> mstep s m = Some s' -> Inv s'.
Proof. exact mstep_inv. Qed.

(* REGRESSION (defect repaired by fix db1490c).  Before the repair, rotation stayed on the old segment
   whenever Manifest::save returned Err, also when the failure was the directory fsync after the
   rename: the MANIFEST then listed the new segment as the newest, the next snapshot's compaction
   unlinked the old one, and an append acknowledged afterwards was unrecoverable.  `mstep_old` keeps
   that behaviour as a labelled model; the same trace on the current model keeps the entry. *)
Theorem C03_seg_old_rotation_refuted :
  exists s', mrun_old init old_loss_trace = Some s' /\ In 2 (log s') /\ recoverable s' 2 = false
             /\ active s' = Some 10 /\ memN 10 (files s') = false.
Proof. eexists. vm_compute. repeat split; auto. Qed.

(* Non-vacuity: a well-formed run with a fault in every position class, ending in a state with a live
   writer, several listed segments (two are left after compaction), a committed snapshot and a compacted segment. *)
Example C03_seg_nonvacuous :
  exists s', mrun init [ MStart 10 COk VPost; MStart 11 CFailFile VOk; MStart 12 COk VOk; MAppend [1; 2];
                         MRotate 13 COk VPre; MRotate 14 COk VPost; MAppend [3];
                         MSnapshot 5 [VOk; VOk; VPre] [false; true]; MAppend [6];
                         MRotate 15 CFailNoFile VOk; MSnapshot 6 [VPost] []; MStop; MStart 16 COk VOk;
                         MAppend [9] ] = Some s'
             /\ man s' = [14; 16] /\ snap s' = 6 /\ active s' = Some 16 /\ log s' = [1; 2; 3; 6; 9]
             /\ forallb (recoverable s') (log s') = true.
Proof. eexists. vm_compute. repeat split. Qed.

Print Assumptions C03_seg_appended_stays_recoverable.
Print Assumptions C03_seg_snapshot_covers_only_captured.
Print Assumptions C03_seg_writer_on_newest_listed.
Print Assumptions C03_seg_listed_segments_exist.
Print Assumptions C03_seg_step_preserves_invariant.
Print Assumptions C03_seg_old_rotation_refuted.
