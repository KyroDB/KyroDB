(* C09 — snapshots and compaction racing with writers lose and duplicate nothing.
   Proofs in Proofs/Conc09Proofs.v (+ Conc09Lemmas.v), model in Model/Conc09.v.

   `crun c init sched` runs ANY schedule: `EvCall t call` / `EvSnap t` start a writer call (insert,
   delete, update_metadata, batch_delete) or a manual create_snapshot on an idle thread t, `EvStep t`
   is the next atomic step of thread t (disabled steps make crun answer None).  The "programs" of the
   threads are therefore whatever the schedule starts: the theorems quantify over every number of
   writer threads, every number of snapshot threads (manual ones and the automatic snapshots that
   writers run inline when the interval is reached), every call sequence and every interleaving, for
   every configuration (snapshot interval, rotation threshold, capacity, frame sizes).
   The staged versions asked for by the design (one snapshotter first, then two) are subsumed: the
   general statement is proved.

   PARTIAL with respect to the property text: this is a theorem about the protocol model; the tie to
   /repo is the lock-skeleton correspondence, the directed schedules and the stress runs of
   checks/c09.py; real preemption at arbitrary instructions is not exhibited. *)
From Coq Require Import List NArith Bool Sorted.
From Kyro Require Import Model.Amap Model.Conc09 Proofs.Conc09Lemmas Proofs.Conc09Proofs.
Import ListNotations.
Open Scope N_scope.

(* KNOWN CLASS (finding C09-snapshot-file-id-collision).  `distinct_ids c := forall n, c_clock c n = n`
   gives the n-th file creation the id n: every creation gets its own id, in increasing order.
   HnswBackend::file_id used to return the microsecond clock alone; when two create_snapshot calls drew
   the same id the property FAILED — in the model (C09_same_file_id_refuted below, by evaluation) and on
   the engine (driver probe `c09 --probe-fileid`, strict recovery refused: "loaded state covers WAL
   sequence a but the manifest committed a snapshot at sequence b").  file_id() now keeps the last id
   handed out and is strictly increasing within the process (/repo 4c7b089).  All theorems are stated for
   ~Known = distinct_ids. *)

(* Once every call has returned, a (strict) restart from the directory yields exactly the live
   collection — nothing lost, nothing resurrected, no stale value. *)
Theorem C09_quiescent_exact : forall (c : cfg) (sched : list ev) (st : state),
  distinct_ids c ->
  crun c init sched = Some st -> all_done st = true ->
  recover (disk_of st) = Some (st_store st).
Proof.
  intros c sched st Hclk H Hd.
  destruct (recover_eq st) as (_ & _ & last & docs & Hrec & Heq); [eapply reachable_inv; [exact Hclk|exists sched; exact H]|].
  rewrite Hrec, Heq, (quiescent_no_flight _ Hd). reflexivity.
Qed.

(* Stronger: at ANY moment (snapshots, rotations, compactions half done, writers in flight) a restart
   yields the live collection plus exactly the operations already appended to the WAL by the writer
   that holds the write gate and not yet applied in memory — in order. *)
Theorem C09_recover_any_time : forall (c : cfg) (sched : list ev) (st : state),
  distinct_ids c ->
  crun c init sched = Some st ->
  recover (disk_of st) = Some (apply_entries (st_store st) (in_flight st)).
Proof.
  intros c sched st Hclk H.
  destruct (recover_eq st) as (_ & _ & last & docs & Hrec & Heq); [eapply reachable_inv; [exact Hclk|exists sched; exact H]|].
  rewrite Hrec, Heq. reflexivity.
Qed.

(* A stale snapshot never replaces a newer one: along every run the sequence number the manifest's
   snapshot pointer stands for never decreases ... *)
Theorem C09_stale_snapshot_never_wins : forall (c : cfg) (sched0 : list ev) (st : state) (sched : list ev) (st' : state),
  distinct_ids c ->
  crun c init sched0 = Some st -> crun c st sched = Some st' ->
  ptr_seq (st_man st) <= ptr_seq (st_man st').
Proof.
  intros c sched0 st sched st' Hclk H0 H.
  assert (HI : Inv st) by (eapply reachable_inv; [exact Hclk|exists sched0; exact H0]).
  exact (proj2 (run_inv _ _ _ _ Hclk HI H)).
Qed.

(* ... and the snapshotter that finds a newer pointer leaves the manifest and the segments alone
   (it only removes its own new file). *)
Theorem C09_stale_snapshot_skips : forall (c : cfg) (st : state) (t : nat) (last : N) (copy : store) (f : N) (st' : state),
  tget (st_thr st) t = SFile last copy f -> last < ptr_seq (st_man st) ->
  cstep c st (EvStep t) = Some st' ->
  st_man st' = st_man st /\ tget (st_thr st') t = Idle /\ st_files st' = st_files st.
Proof.
  intros c st t last copy f st' Hp Hlt H. unfold cstep, cstep_l in H. rewrite Hp in H.
  destruct st as [nx sto slots cnt act bytes files snaps man fid gate mlock thr]. cbn [tstep st_man] in *.
  destruct mlock; [discriminate|]. apply N.ltb_lt in Hlt. rewrite Hlt in H. injection H as <-.
  cbn [set_thr st_man st_thr st_files]. rewrite tget_tset_same. auto.
Qed.

(* Replay visits every listed entry once, in list order, applies exactly those not covered by the
   snapshot and skips the covered ones; in every reachable state the listed entries carry strictly
   increasing sequence numbers, so no logged operation is present (hence applied) twice. *)
Theorem C09_no_duplicate_effect : forall (c : cfg) (sched : list ev) (st : state),
  distinct_ids c ->
  crun c init sched = Some st ->
  exists (last : N) (docs : store) (es : list entry),
    read_segs (st_files st) (m_segs (st_man st)) = Some es /\
    recover (disk_of st) = Some (apply_entries docs (filter (fun e => negb (covered last e)) es)) /\
    StronglySorted N.lt (map e_seq es).
Proof.
  intros c sched st Hclk H.
  destruct (recover_eq st) as (Hr & Hs & last & docs & Hrec & _); [eapply reachable_inv; [exact Hclk|exists sched; exact H]|].
  exists last, docs, (flat (st_files st) (m_segs (st_man st))). rewrite <- replay_filter. auto.
Qed.

(* Non-vacuity: two writer threads (1, 2) and a manual snapshot thread (3); rotation after two
   frames; automatic snapshots (interval 2) run inside writers 2 and 1; the snapshots of threads 2
   and 3 (last = 2) lose against the one of thread 1 (last = 3) and are discarded as stale; segment 1
   is compacted away.  The schedule is a run of the semantics, ends quiescent, and the restart
   yields the live collection {8}.                                                                  *)
Definition ex_cfg : cfg := mkCfg 2 6 100 (fun _ => 1) (fun n => n).
Example ex_cfg_distinct : distinct_ids ex_cfg.
Proof. intro n. reflexivity. Qed.
Definition ex_sched : list ev :=
  [EvCall 1 (CIns 7 1 1); EvStep 1; EvStep 1; EvStep 1; EvStep 1; EvSnap 3; EvCall 2 (CIns 8 2 2);
   EvStep 2; EvStep 1; EvStep 1; EvStep 1; EvStep 1; EvStep 1; EvStep 2; EvStep 2; EvStep 2; EvStep 2;
   EvStep 2; EvStep 2; EvStep 2; EvStep 2; EvStep 2; EvStep 3; EvStep 2; EvCall 1 (CDel 7); EvStep 1;
   EvStep 1; EvStep 1; EvStep 1; EvStep 1; EvStep 1; EvStep 1; EvStep 1; EvStep 1; EvStep 1; EvStep 1;
   EvStep 1; EvStep 1; EvStep 1; EvStep 1; EvStep 1; EvStep 1; EvStep 3; EvStep 3; EvStep 2; EvStep 2]%nat.

Example C09_nonvacuous :
  exists st, crun ex_cfg init ex_sched = Some st /\ all_done st = true /\
             st_store st = [(8, (2, 2))] /\
             st_man st = mkMan (Some (3, 3)) [2] /\                      (* pointer at seq 3, segment 1 compacted *)
             st_snaps st = [(3, (3, [(8, (2, 2))]))] /\                  (* the two stale snapshot files are gone *)
             recover (disk_of st) = Some [(8, (2, 2))].
Proof. eexists. split; [vm_compute; reflexivity|]. vm_compute. repeat split. Qed.

(* mid-run non-vacuity of the stronger statement: writer 1 has appended but not applied, the manual
   snapshot is requested and is NOT enabled (the capture needs snapshot_lock exclusively) *)
Example C09_capture_excluded :
  exists st, crun ex_cfg init [EvCall 1 (CIns 7 1 1); EvStep 1; EvStep 1; EvStep 1; EvStep 1; EvSnap 3]%nat = Some st /\
             in_flight st = [mkE 1 (OPut 7 1 1)] /\ st_store st = [] /\
             cstep ex_cfg st (EvStep 3%nat) = None /\
             recover (disk_of st) = Some [(7, (1, 1))].
Proof. eexists. split; [vm_compute; reflexivity|]. vm_compute. repeat split. Qed.

(* The known class refutes the property: two snapshots (thread 1 captured at seq 1, thread 2 at seq 2,
   one write in between, rotation after every frame) whose files get the SAME id 4.  Thread 2 saves
   first, thread 1's save replaces the content (last = 1), thread 1 commits (4, 1), thread 2 is not
   stale and commits (4, 2) and compacts against 2.  All calls return; the directory names a snapshot
   at sequence 2 whose file holds sequence 1, the segment with entry 2 is gone: strict recovery
   refuses, the live collection {1, 2} is not recoverable.                                          *)
Definition bad_cfg : cfg := mkCfg 0 1 100 (fun _ => 1) (fun n => if n =? 5 then 4 else n).
Definition bad_sched : list ev :=
  [EvCall 3 (CIns 1 1 1); EvStep 3; EvStep 3; EvStep 3; EvStep 3; EvStep 3; EvStep 3; EvStep 3; EvStep 3;
   EvStep 3; EvStep 3; EvSnap 1; EvStep 1; EvCall 3 (CIns 2 2 2); EvStep 3; EvStep 3; EvStep 3; EvStep 3;
   EvStep 3; EvStep 3; EvStep 3; EvStep 3; EvStep 3; EvStep 3; EvSnap 2; EvStep 2; EvStep 2; EvStep 1;
   EvStep 1; EvStep 1; EvStep 1; EvStep 1; EvStep 1; EvStep 1; EvStep 2; EvStep 2; EvStep 2; EvStep 2;
   EvStep 2; EvStep 2]%nat.

Theorem C09_same_file_id_refuted :
  exists (c : cfg) (sched : list ev) (st : state),
    ~ distinct_ids c /\ crun c init sched = Some st /\ all_done st = true /\
    st_store st = [(1, (1, 1)); (2, (2, 2))] /\
    st_man st = mkMan (Some (4, 2)) [3] /\ st_snaps st = [(4, (1, [(1, (1, 1))]))] /\
    recover (disk_of st) = None.
Proof.
  exists bad_cfg, bad_sched. eexists. split.
  - intro H. specialize (H 5). vm_compute in H. discriminate.
  - split; [vm_compute; reflexivity|]. vm_compute. repeat split.
Qed.

Print Assumptions C09_quiescent_exact.
Print Assumptions C09_recover_any_time.
Print Assumptions C09_stale_snapshot_never_wins.
Print Assumptions C09_stale_snapshot_skips.
Print Assumptions C09_no_duplicate_effect.
Print Assumptions C09_same_file_id_refuted.
