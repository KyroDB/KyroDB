(* C01, periodic-fsync clause — "under the periodic-fsync policy the same holds against power loss for
   every operation acknowledged more than one configured flush interval before the failure".
   Statements only; model Model/Periodic.v (the timed core of WalWriter::perform_fsync), proofs in
   Proofs/PeriodicProofs.v.

   The clause at full strength (`periodic_clause`) is FALSE of the faithful model:
   C01_periodic_idle_tail_refuted is the witness (Periodic(50 ms), appends acknowledged at 10 ms and 11 ms,
   200 ms idle, power loss) — the recorded finding C01-periodic-idle-tail-never-synced, which the C01
   driver replays on the real engine on every run.  What the code does guarantee is proved for every
   interval, every start instant and every timed history: an entry is durable as soon as ANY append is
   acknowledged at least one interval after it (C01_periodic_partial), and with interval 0 nothing is
   ever pending (C01_periodic_zero_every_write).  So the recorded class is exactly the idle tail. *)
From Coq Require Import List NArith.
From Kyro Require Import Model.Periodic Proofs.PeriodicProofs.
Import ListNotations.
Open Scope N_scope.

Theorem C01_periodic_partial : forall iv t0 pre d mid dj post,
  p_now (prun iv t0 (pre ++ [d])) + iv <= p_now (prun iv t0 (pre ++ [d] ++ mid ++ [dj])) ->
  (length pre < length (p_durable (prun iv t0 (pre ++ [d] ++ mid ++ [dj] ++ post))))%nat.
Proof. exact periodic_followed_durable. Qed.

Theorem C01_periodic_zero_every_write : forall t0 evs, p_pending (prun 0 t0 evs) = [].
Proof. intros t0 evs. apply pending_zero_run. reflexivity. Qed.

Theorem C01_periodic_idle_tail_refuted : ~ periodic_clause 50 0 [10; 1] 200.
Proof.
  unfold periodic_clause. intros H. specialize (H 0%nat 10 eq_refl).
  vm_compute in H. specialize (H eq_refl). inversion H.
Qed.

Example C01_periodic_nonvacuous :
  p_durable (prun 50 0 [10; 1; 60; 5]) = [10; 11; 71] /\ p_pending (prun 50 0 [10; 1; 60; 5]) = [76].
Proof. exact periodic_followed_nonvacuous. Qed.

Print Assumptions C01_periodic_partial.
Print Assumptions C01_periodic_zero_every_write.
Print Assumptions C01_periodic_idle_tail_refuted.
