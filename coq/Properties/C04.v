(* C04 — lookups by id return the canonical latest version whatever the caches hold.
   `digest` is the 128-bit payload digest of coherence.rs; its collision-freeness is the explicit
   premise `digest_inj`.  `valid` is the set of vectors the cold tier accepts.  `s` is ANY state:
   arbitrary cache / mirror contents, no reachability premise, in C04_reads_canonical. *)
From Coq Require Import List NArith ZArith Bool Arith.
From Kyro Require Import Model.TMap Model.Tiered Proofs.TieredProofs.
Import ListNotations.

(* every read flavour answers exactly what the canonical store holds *)
Theorem C04_reads_canonical : forall (digest : vec -> dgst),
  (forall a b : vec, digest a = digest b -> a = b) ->
  forall (c : config) (s : state) (adm : bool) (id : N) (ids : list N),
  option_map fst (snd (query digest c s adm id)) = option_map fst (lookup id (cold_docs s)) /\
  snd (get_doc digest c s id) = lookup id (cold_docs s) /\
  snd (get_emb digest c s id) = option_map fst (lookup id (cold_docs s)) /\
  get_meta s id = option_map snd (lookup id (cold_docs s)) /\
  exists_ digest s id = (match lookup id (cold_docs s) with Some _ => true | None => false end) /\
  map strip (snd (bulk digest c s true ids)) = map (fun i => lookup i (cold_docs s)) ids.
Proof.
  intros digest Hinj c s adm id ids.
  split; [exact (proj2 (query_ok digest c s adm id) Hinj)|]. split; [exact (proj2 (get_doc_ok digest c s id) Hinj)|].
  split; [exact (proj2 (get_emb_ok digest c s id) Hinj)|]. split; [apply get_meta_canonical|].
  split; [apply exists_canonical|]. exact (proj2 (bulk_ok digest c s ids) Hinj).
Qed.

(* every operation commutes with the abstract map: the latest successful write wins, deletes
   remove, everything else (reads, drains, audits, cache pokes, mirror pokes) leaves it alone *)
Theorem C04_refines_map : forall (digest : vec -> dgst) (valid : vec -> bool),
  (forall a b : vec, digest a = digest b -> a = b) ->
  forall (c : config) (s : state) (o : op),
  no_orphan s ->
  forall k : N,
  lookup k (cold_docs (fst (step digest valid c s o))) = lookup k (spec_step valid (cold_docs s) o).
Proof. intros digest valid _. exact (step_refines digest valid). Qed.

(* end to end, over unbounded API histories (mirror pokes restricted to existing ids, cache pokes
   unrestricted): the canonical store after the history is the fold of the specification over the
   same operations — with C04_reads_canonical, every read returns the most recent successful write *)
Theorem C04_history_latest_write_wins : forall (digest : vec -> dgst) (valid : vec -> bool),
  (forall a b : vec, digest a = digest b -> a = b) ->
  forall (c : config) (docs : list (N * vec * meta)) (ops : list op) (s : state),
  run_guarded digest valid c (init docs) ops = Some s ->
  forall k : N,
  lookup k (cold_docs s) = lookup k (fold_left (spec_step valid) ops (cold_docs (init docs))).
Proof.
  intros digest valid _ c docs ops s H.
  apply (run_guarded_refines digest valid c ops (init docs) _ s (init_no_orphan docs) (fun k => eq_refl) H).
Qed.

(* drains (forced or threshold), audits and background ticks change neither the canonical store nor
   any read result *)
Theorem C04_drain_audit_neutral : forall (digest : vec -> dgst) (valid : vec -> bool),
  (forall a b : vec, digest a = digest b -> a = b) ->
  forall (c : config) (s : state) (o : op),
  no_orphan s ->
  is_maintenance o = true ->
  let s' := fst (step digest valid c s o) in
  (forall k : N, lookup k (cold_docs s') = lookup k (cold_docs s)) /\
  (forall (adm : bool) (id : N) (ids : list N),
     option_map fst (snd (query digest c s' adm id)) = option_map fst (snd (query digest c s adm id)) /\
     snd (get_doc digest c s' id) = snd (get_doc digest c s id) /\
     snd (get_emb digest c s' id) = snd (get_emb digest c s id) /\
     get_meta s' id = get_meta s id /\
     exists_ digest s' id = exists_ digest s id /\
     map strip (snd (bulk digest c s' true ids)) = map strip (snd (bulk digest c s true ids))).
Proof.
  intros digest valid Hinj c s o NO M. cbv zeta.
  assert (K : forall k, lookup k (cold_docs (fst (step digest valid c s o))) = lookup k (cold_docs s)).
  { intros k. rewrite (step_refines digest valid c s o NO k). destruct o; try discriminate; reflexivity. }
  split; [exact K|]. intros adm id ids. apply (reads_agree digest Hinj), K.
Qed.

(* orphans (mirror entries without a cold record) are unreachable by API histories, including
   arbitrary L1a pokes and stale / corrupt mirror pokes on ids that exist in the cold tier *)
Theorem C04_api_no_orphan : forall (digest : vec -> dgst) (valid : vec -> bool),
  (forall a b : vec, digest a = digest b -> a = b) ->
  forall (c : config) (docs : list (N * vec * meta)) (ops : list op) (s : state),
  run_guarded digest valid c (init docs) ops = Some s -> no_orphan s.
Proof.
  intros digest valid _ c docs ops s H.
  apply (run_guarded_refines digest valid c ops (init docs) _ s (init_no_orphan docs) (fun k => eq_refl) H).
Qed.

(* after ANY API history without mirror pokes (cache pokes allowed) no hot-tier mirror is stale:
   every mirror entry carries the current canonical payload and token of its id, i.e. is a `Match`
   (relies on bulk_load_cold_tier dropping the mirrors of the ids it loads, repo commit b64dfda;
   used by C06: hot-tier k-NN candidates are live documents) *)
Theorem C04_api_no_stale_mirror : forall (digest : vec -> dgst) (valid : vec -> bool),
  (forall a b : vec, digest a = digest b -> a = b) ->
  forall (c : config) (docs : list (N * vec * meta)) (ops : list op),
  forallb no_hot_poke ops = true ->
  let s := run digest valid c (init docs) ops in
  forall (id : N) (h : hent), lookup id (hot s) = Some h ->
  (exists r, lookup id (cold s) = Some r /\ h_vec h = c_vec r /\ h_tok h = (c_ver r, digest (c_vec r))) /\
  canon_state digest s id (h_vec h) (h_tok h) = CMatch.
Proof.
  intros digest valid _ c docs ops G. cbv zeta. intros id h H.
  destruct (run_tok_fresh digest valid c docs ops G id h H) as (r & L & F).
  split; [exists r; split; [exact L|exact F]|exact (fresh_match digest _ id h r L F)].
Qed.

(* Known class (by design; engine test test_flush_hot_tier_repairs_missing_cold_record_from_mirror
   demands it): a mirror entry planted for an ABSENT id is resurrected by a drain, i.e. without
   `no_orphan` a drain does change the canonical store. *)
Definition orphan_cfg := mkCfg 1 1 false 100 4.
Definition orphan_ops : list op := [OPokeHot 5%N [1%Z; 2%Z] [] (0%N, [1%Z; 2%Z])].
Theorem C04_orphan_repair_refuted :
  let s := run id_digest all_valid orphan_cfg (init []) orphan_ops in
  ~ no_orphan s /\
  lookup 5%N (cold_docs s) = None /\
  lookup 5%N (cold_docs (fst (step id_digest all_valid orphan_cfg s (OFlush true)))) = Some ([1%Z; 2%Z], []).
Proof.
  cbv zeta. split; [|split; vm_compute; reflexivity].
  intros H. apply (H 5%N); vm_compute; congruence.
Qed.

(* Non-vacuity: the premises are satisfiable (identity digest; the empty engine has no orphan and a
   guarded history exists), and a concrete history (insert, bulk load over it — which drops the mirror —, a planted stale L1a entry
   and a planted stale mirror) is answered from the cold tier with both stale copies scrubbed. *)
Definition ex_cfg := mkCfg 1 1 false 100 4.
Definition ex_ops : list op :=
  [OInsert 1%N [1%Z] []; OBulkLoad [(1%N, [2%Z], [])]; OPokeL1 false 1%N [1%Z] (1%N, [1%Z]);
   OPokeHot 1%N [1%Z] [] (1%N, [1%Z])].
Example C04_nonvacuous :
  (forall a b : vec, id_digest a = id_digest b -> a = b) /\
  no_orphan (init []) /\
  (exists s, run_guarded id_digest all_valid ex_cfg (init []) ex_ops = Some s /\
             length (l1a s) = 1 /\ length (hot s) = 1 /\
             query id_digest ex_cfg s false 1%N =
               (mkS (cold s) [] [] [] (ctr s), Some ([2%Z], TCold))).
Proof.
  split; [exact id_digest_inj|]. split; [apply init_no_orphan|].
  eexists. split; [vm_compute; reflexivity|]. vm_compute. auto.
Qed.

Print Assumptions C04_reads_canonical.
Print Assumptions C04_refines_map.
Print Assumptions C04_history_latest_write_wins.
Print Assumptions C04_drain_audit_neutral.
Print Assumptions C04_api_no_orphan.
Print Assumptions C04_api_no_stale_mirror.
Print Assumptions C04_orphan_repair_refuted.
